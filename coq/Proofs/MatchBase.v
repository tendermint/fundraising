(* For the matching proofs: sums over the entries of a list with a given key, and Match.bidders_of, the sorted
   duplicate-free list of the bidders of a book. *)
From Coq Require Import ZArith NArith List Lia Permutation Sorting.
From FR Require Import Dec Types Match.
From FR.Proofs Require Import ListFacts.
From FR.Proofs Require Import DecFacts.
Import ListNotations.
Open Scope Z_scope.
Opaque P.

(* DecFacts.qty_of_worth_eq, DecFacts.worth_never_overpays and ListFacts.sumZ_app under the same short names: in a file
   that imports both, the short name is the one below *)
Lemma qty_of_worth_eq a p : 0 <= a -> 0 < p -> qty_of_worth a p = a * P / p.
Proof. exact (DecFacts.qty_of_worth_eq a p). Qed.

Lemma worth_never_overpays a p : 0 <= a -> 0 < p -> pay_of_qty (qty_of_worth a p) p <= a.
Proof. exact (DecFacts.worth_never_overpays a p). Qed.

Lemma sumZ_app l1 l2 : sumZ (l1 ++ l2) = sumZ l1 + sumZ l2.
Proof. exact (ListFacts.sumZ_app l1 l2). Qed.

Lemma sumZ_map_mul {A} (f : A -> Z) c l :
  sumZ (map (fun x => f x * c) l) = sumZ (map f l) * c.
Proof. induction l as [|a l IH]; cbn [map]; rewrite ?sumZ_cons, ?sumZ_nil; lia. Qed.

(* the shape of reserved_of, and of got, paid_in and asked in MatchSweep.v *)
Lemma keyed_sum_cons {A} (k : A -> N) (f : A -> Z) u x l :
  sumZ (map f (filter (fun y => N.eqb (k y) u) (x :: l))) =
  (if N.eqb (k x) u then f x else 0) + sumZ (map f (filter (fun y => N.eqb (k y) u) l)).
Proof. cbn [filter]. destruct (N.eqb (k x) u); cbn [map]; rewrite ?sumZ_cons; lia. Qed.

Lemma keyed_sum_nonneg {A} (k : A -> N) (f : A -> Z) u l :
  (forall x, In x l -> 0 <= f x) -> 0 <= sumZ (map f (filter (fun y => N.eqb (k y) u) l)).
Proof.
  intros H. apply sumZ_map_nonneg. intros x Hx.
  apply filter_In in Hx. apply H, Hx.
Qed.

Lemma keyed_sum_perm {A} (k : A -> N) (f : A -> Z) u l l' :
  Permutation l l' ->
  sumZ (map f (filter (fun y => N.eqb (k y) u) l)) = sumZ (map f (filter (fun y => N.eqb (k y) u) l')).
Proof. intros Pm. apply sumZ_perm, Permutation_map, filter_perm. exact Pm. Qed.

Lemma keyed_sum_filter_le {A} (k : A -> N) (f : A -> Z) u (g : A -> bool) l :
  (forall x, In x l -> 0 <= f x) ->
  sumZ (map f (filter (fun y => N.eqb (k y) u) (filter g l))) <= sumZ (map f (filter (fun y => N.eqb (k y) u) l)).
Proof.
  intros H. rewrite filter_comm. apply sumZ_filter_le.
  intros x Hx. apply filter_In in Hx. apply H, Hx.
Qed.

(* a sum over all entries is the sum, over the keys, of the keyed sums *)
Lemma keyed_sum_total {A} (k : A -> N) (f : A -> Z) (U : list N) l :
  NoDup U -> (forall x, In x l -> In (k x) U) ->
  sumZ (map (fun u => sumZ (map f (filter (fun y => N.eqb (k y) u) l))) U) = sumZ (map f l).
Proof. exact (sumZ_by_key N.eqb k f U l N.eqb_eq). Qed.

Lemma reserved_of_perm pd l l' u : Permutation l l' -> reserved_of pd l u = reserved_of pd l' u.
Proof. apply keyed_sum_perm. Qed.

Lemma insert_sorted_in u l x : In x (insert_sorted u l) <-> In x (u :: l).
Proof.
  induction l as [|v l IH]; cbn [insert_sorted]; [reflexivity|].
  destruct (N.ltb_spec u v) as [L|L]; [reflexivity|].
  destruct (N.eqb_spec u v) as [->|NE]; cbn [In]; [tauto|].
  rewrite IH. cbn [In]. tauto.
Qed.

Lemma insert_sorted_sorted u l : StronglySorted N.lt l -> StronglySorted N.lt (insert_sorted u l).
Proof.
  induction 1 as [|v l HS IH HF]; cbn [insert_sorted].
  - constructor; constructor.
  - destruct (N.ltb_spec u v) as [L|L].
    + constructor; [constructor; assumption|]. constructor; [exact L|].
      rewrite Forall_forall in *. intros x Hx. specialize (HF x Hx). lia.
    + destruct (N.eqb_spec u v) as [->|NE].
      * constructor; assumption.
      * constructor; [exact IH|]. rewrite Forall_forall in *. intros x Hx.
        apply insert_sorted_in in Hx. destruct Hx as [<-|Hx]; [lia|apply HF; exact Hx].
Qed.

Lemma bidders_of_sorted bs : StronglySorted N.lt (bidders_of bs).
Proof.
  induction bs as [|b bs IH]; cbn [bidders_of fold_right]; [constructor|].
  apply insert_sorted_sorted. exact IH.
Qed.

Lemma bidders_of_nodup bs : NoDup (bidders_of bs).
Proof. apply sorted_lt_nodup, bidders_of_sorted. Qed.

Lemma bidders_of_in bs u : In u (bidders_of bs) <-> exists b, In b bs /\ b_bidder b = u.
Proof.
  induction bs as [|b bs IH]; cbn [bidders_of fold_right].
  - split; [intros []|intros (b & [] & _)].
  - fold (bidders_of bs). rewrite insert_sorted_in. cbn [In].
    rewrite IH. split.
    + intros [<-|(b' & Hb' & E)]; [exists b; split; [left|]; reflexivity|].
      exists b'. split; [right; exact Hb'|exact E].
    + intros (b' & [->|Hb'] & E); [left; exact E|]. right. exists b'. split; assumption.
Qed.

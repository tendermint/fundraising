(* The insertion sort of Genesis.v (`insert`, `sort_by`), `nodup_by`, lists with unique keys, the three orders the export sorts by
   (instances of the lexicographic combinator lexb), and seqN, the ids 1 .. n that GenesisRT.v and GenesisImport.v count with.  Nothing here mentions the state. *)
From Coq Require Import ZArith NArith List Bool Lia Permutation Sorted.
From FR Require Import Types Genesis.
From FR.Proofs Require Import ListFacts.
Import ListNotations.

Lemma nodup_by_of_NoDup {A K} (key : A -> K) (eqb : A -> A -> bool) :
  (forall x y, eqb x y = true -> key x = key y) ->
  forall l, NoDup (map key l) -> nodup_by eqb l = true.
Proof.
  intros Hk. induction l as [|x r IH]; intros Hnd; [reflexivity|].
  cbn [map] in Hnd. apply NoDup_cons_iff in Hnd. destruct Hnd as [Hnotin Hnd].
  cbn [nodup_by]. rewrite (IH Hnd), andb_true_r.
  destruct (existsb (eqb x) r) eqn:E; [|reflexivity].
  apply existsb_exists in E. destruct E as [y [Hy Hxy]].
  exfalso. apply Hnotin. rewrite (Hk _ _ Hxy). apply in_map. exact Hy.
Qed.

Lemma NoDup_of_nodup_by {A K} (key : A -> K) (eqb : A -> A -> bool) :
  (forall x y, key x = key y -> eqb x y = true) ->
  forall l, nodup_by eqb l = true -> NoDup (map key l).
Proof.
  intros Hk. induction l as [|x r IH]; intros H; [constructor|].
  cbn [nodup_by] in H. apply andb_prop in H. destruct H as [Hx Hr].
  cbn [map]. constructor; [|apply IH; exact Hr].
  intros Hin. apply in_map_iff in Hin. destruct Hin as [y [Ey Hy]].
  apply negb_true_iff in Hx.
  assert (existsb (eqb x) r = true) as Ht.
  { apply existsb_exists. exists y. split; [exact Hy|]. apply Hk. symmetry. exact Ey. }
  congruence.
Qed.

Fixpoint seqN (a : N) (n : nat) : list N :=
  match n with O => [] | S m => a :: seqN (a + 1) m end.

Lemma seqN_length a n : length (seqN a n) = n.
Proof. revert a. induction n as [|n IH]; intros a; [reflexivity|]. cbn [seqN length]. rewrite IH. reflexivity. Qed.

Lemma map_of_nat_seq a n : map N.of_nat (seq a n) = seqN (N.of_nat a) n.
Proof.
  revert a. induction n as [|n IH]; intros a; [reflexivity|].
  cbn [seq map seqN]. f_equal. rewrite IH. f_equal. lia.
Qed.

Lemma map_succ_seqN a n : map N.succ (seqN a n) = seqN (a + 1) n.
Proof.
  revert a. induction n as [|n IH]; intros a; [reflexivity|].
  cbn [seqN map]. rewrite IH. f_equal. lia.
Qed.

Lemma seqN_lower a n : Forall (fun x => (a <= x)%N) (seqN a n).
Proof.
  revert a. induction n as [|n IH]; intros a; [constructor|].
  cbn [seqN]. constructor; [lia|].
  eapply Forall_impl; [|apply IH]. cbn beta. intros x Hx. lia.
Qed.

Lemma seqN_sorted a n : StronglySorted N.lt (seqN a n).
Proof.
  revert a. induction n as [|n IH]; intros a; [constructor|].
  cbn [seqN]. constructor; [apply IH|].
  eapply Forall_impl; [|apply seqN_lower]. cbn beta. intros x Hx. lia.
Qed.

Lemma seqN_NoDup a n : NoDup (seqN a n).
Proof. apply sorted_lt_nodup. apply seqN_sorted. Qed.

Lemma ssorted_filter {A} (R : A -> A -> Prop) (p : A -> bool) (l : list A) :
  StronglySorted R l -> StronglySorted R (filter p l).
Proof.
  induction l as [|x r IH]; intros H; [constructor|].
  apply StronglySorted_inv in H. destruct H as [Hr Hx].
  cbn [filter]. destruct (p x); [|apply IH; exact Hr].
  constructor; [apply IH; exact Hr|].
  rewrite Forall_forall in *. intros y Hy. apply Hx. apply filter_In in Hy. apply Hy.
Qed.

Section SortFacts.
  Context {A : Type} (le : A -> A -> bool).

  Definition le_total : Prop := forall x y, le x y = false -> le y x = true.
  Definition le_trans : Prop := forall x y z, le x y = true -> le y z = true -> le x z = true.
  Definition leP (x y : A) : Prop := le x y = true.

  Lemma insert_perm x l : Permutation (insert le x l) (x :: l).
  Proof.
    induction l as [|y r IH]; [apply Permutation_refl|].
    cbn [insert]. destruct (le x y); [apply Permutation_refl|].
    eapply Permutation_trans; [apply perm_skip; exact IH|apply perm_swap].
  Qed.

  Lemma sort_by_perm l : Permutation (sort_by le l) l.
  Proof.
    induction l as [|x r IH]; [constructor|].
    unfold sort_by in *. cbn [fold_right].
    eapply Permutation_trans; [apply insert_perm|]. constructor. exact IH.
  Qed.

  Lemma sort_by_in x l : In x (sort_by le l) <-> In x l.
  Proof.
    split; apply Permutation_in; [|apply Permutation_sym]; apply sort_by_perm.
  Qed.

  Lemma sort_by_length l : length (sort_by le l) = length l.
  Proof. apply Permutation_length. apply sort_by_perm. Qed.

  Lemma sort_by_Forall (Q : A -> Prop) l : Forall Q l -> Forall Q (sort_by le l).
  Proof. apply Permutation_Forall. apply Permutation_sym. apply sort_by_perm. Qed.

  Lemma sort_by_NoDup_keys {K} (key : A -> K) l : NoDup (map key l) -> NoDup (map key (sort_by le l)).
  Proof.
    apply Permutation_NoDup. apply Permutation_map. apply Permutation_sym. apply sort_by_perm.
  Qed.

  Lemma insert_head x l : (forall z, In z l -> le x z = true) -> insert le x l = x :: l.
  Proof.
    destruct l as [|y r]; intros H; [reflexivity|].
    cbn [insert]. rewrite (H y (or_introl eq_refl)). reflexivity.
  Qed.

  Section Order.
    Hypothesis Htot : le_total.
    Hypothesis Htr : le_trans.

    Lemma insert_sorted x l : StronglySorted leP l -> StronglySorted leP (insert le x l).
    Proof.
      induction l as [|y r IH]; intros H.
      - cbn [insert]. constructor; constructor.
      - pose proof (StronglySorted_inv H) as [Hr Hy].
        cbn [insert]. destruct (le x y) eqn:E.
        + constructor; [exact H|]. constructor; [exact E|].
          eapply Forall_impl; [|exact Hy]. intros z Hz. eapply Htr; [exact E|exact Hz].
        + constructor; [apply IH; exact Hr|].
          rewrite Forall_forall in *. intros z Hz.
          apply (Permutation_in _ (insert_perm x r)) in Hz. destruct Hz as [<-|Hz].
          * apply Htot. exact E.
          * apply Hy. exact Hz.
    Qed.

    Lemma sort_by_sorted l : StronglySorted leP (sort_by le l).
    Proof.
      induction l as [|x r IH]; [constructor|].
      unfold sort_by in *. cbn [fold_right]. apply insert_sorted. exact IH.
    Qed.

    Lemma sort_by_locally_sorted l : Sorted leP (sort_by le l).
    Proof. apply StronglySorted_Sorted. apply sort_by_sorted. Qed.

    Lemma sort_by_id l : StronglySorted leP l -> sort_by le l = l.
    Proof.
      induction l as [|x r IH]; intros H; [reflexivity|].
      apply StronglySorted_inv in H. destruct H as [Hr Hx].
      unfold sort_by in *. cbn [fold_right]. rewrite (IH Hr).
      apply insert_head. rewrite Forall_forall in Hx. exact Hx.
    Qed.

    Lemma sort_by_idem l : sort_by le (sort_by le l) = sort_by le l.
    Proof. apply sort_by_id. apply sort_by_sorted. Qed.

    Lemma filter_insert (p : A -> bool) x l : StronglySorted leP l ->
      filter p (insert le x l) = if p x then insert le x (filter p l) else filter p l.
    Proof.
      induction l as [|y r IH]; intros H.
      - cbn [insert filter]. destruct (p x); reflexivity.
      - pose proof (StronglySorted_inv H) as [Hr Hy].
        cbn [insert]. destruct (le x y) eqn:E.
        + change (filter p (x :: y :: r)) with (if p x then x :: filter p (y :: r) else filter p (y :: r)).
          destruct (p x); [|reflexivity].
          symmetry. apply insert_head. intros z Hz. apply filter_In in Hz. destruct Hz as [Hz _].
          destruct Hz as [<-|Hz]; [exact E|].
          rewrite Forall_forall in Hy. eapply Htr; [exact E|apply Hy; exact Hz].
        + cbn [filter]. rewrite (IH Hr). destruct (p y) eqn:Ey; [|reflexivity].
          destruct (p x); [|reflexivity]. cbn [insert]. rewrite E. reflexivity.
    Qed.

    Lemma filter_sort_by (p : A -> bool) l : filter p (sort_by le l) = sort_by le (filter p l).
    Proof.
      induction l as [|x r IH]; [reflexivity|].
      change (sort_by le (x :: r)) with (insert le x (sort_by le r)).
      rewrite filter_insert by apply sort_by_sorted. rewrite IH.
      cbn [filter]. destruct (p x); reflexivity.
    Qed.

    Lemma filter_sort_by_sorted (p : A -> bool) l :
      StronglySorted leP (filter p l) -> filter p (sort_by le l) = filter p l.
    Proof. intros H. rewrite filter_sort_by. apply sort_by_id. exact H. Qed.

    Lemma sort_by_perm_unique l l' :
      (forall x y, In x l -> In y l -> le x y = true -> le y x = true -> x = y) ->
      Permutation l l' -> sort_by le l = sort_by le l'.
    Proof.
      intros Hanti Hp. apply (sorted_perm_unique leP).
      - intros x y Hx Hy. apply Hanti; apply sort_by_in; assumption.
      - apply sort_by_sorted.
      - apply sort_by_sorted.
      - eapply Permutation_trans; [apply sort_by_perm|].
        eapply Permutation_trans; [exact Hp|]. apply Permutation_sym. apply sort_by_perm.
    Qed.

    Lemma sort_by_keyed {K} (key : A -> K) l l' :
      (forall x y, le x y = true -> le y x = true -> key x = key y) -> NoDup (map key l) ->
      Permutation l l' -> sort_by le l = sort_by le l'.
    Proof.
      intros Hk Hnd. apply sort_by_perm_unique. intros x y Hx Hy Hxy Hyx.
      exact (NoDup_map_inj key l x y Hnd Hx Hy (Hk x y Hxy Hyx)).
    Qed.
  End Order.
End SortFacts.

Definition lexb {A} (f : A -> N) (g : A -> A -> bool) (x y : A) : bool :=
  N.ltb (f x) (f y) || (N.eqb (f x) (f y) && g x y).

Section Lex.
  Context {A : Type} (f : A -> N) (g : A -> A -> bool).

  Lemma lexb_true x y : lexb f g x y = true <-> (f x < f y)%N \/ (f x = f y /\ g x y = true).
  Proof. unfold lexb. rewrite orb_true_iff, andb_true_iff, N.ltb_lt, N.eqb_eq. reflexivity. Qed.

  Lemma lexb_total : le_total g -> le_total (lexb f g).
  Proof.
    intros Hg x y H. apply lexb_true. apply not_true_iff_false in H. rewrite lexb_true in H.
    destruct (N.lt_trichotomy (f y) (f x)) as [L|[E|L]].
    - left. exact L.
    - right. split; [exact E|]. apply Hg. apply not_true_iff_false. intros G.
      apply H. right. split; [symmetry; exact E|exact G].
    - exfalso. apply H. left. exact L.
  Qed.

  Lemma lexb_trans : le_trans g -> le_trans (lexb f g).
  Proof.
    intros Hg x y z H1 H2. apply lexb_true in H1. apply lexb_true in H2. apply lexb_true.
    destruct H1 as [L1|[E1 G1]], H2 as [L2|[E2 G2]]; [left; lia..|].
    right. split; [congruence|exact (Hg x y z G1 G2)].
  Qed.

  Lemma lexb_key {K} (k : A -> K) : (forall x y, g x y = true -> g y x = true -> k x = k y) ->
    forall x y, lexb f g x y = true -> lexb f g y x = true -> (f x, k x) = (f y, k y).
  Proof.
    intros Hk x y H1 H2. apply lexb_true in H1. apply lexb_true in H2.
    destruct H1 as [L1|[E1 G1]], H2 as [L2|[E2 G2]]; try lia.
    rewrite E1, (Hk x y G1 G2). reflexivity.
  Qed.

  Lemma slice_sorted {B} (h : A -> B) (R : B -> B -> Prop) id l :
    (forall x y, R (h x) (h y) -> g x y = true) ->
    StronglySorted R (map h (filter (fun x => N.eqb (f x) id) l)) ->
    StronglySorted (leP (lexb f g)) (filter (fun x => N.eqb (f x) id) l).
  Proof.
    intros Hg. apply ssorted_of_map. intros x y Hx Hy HR.
    apply filter_In in Hx. apply filter_In in Hy. destruct Hx as [_ Ex]. destruct Hy as [_ Ey].
    apply N.eqb_eq in Ex. apply N.eqb_eq in Ey.
    apply lexb_true. right. split; [congruence|apply Hg; exact HR].
  Qed.
End Lex.

Section KeyOrders.
  Context {A : Type}.

  Lemma lebN_total (k : A -> N) : le_total (fun x y => N.leb (k x) (k y)).
  Proof. intros x y H. apply N.leb_gt in H. apply N.leb_le. lia. Qed.
  Lemma lebN_trans (k : A -> N) : le_trans (fun x y => N.leb (k x) (k y)).
  Proof. intros x y z H1 H2. apply N.leb_le in H1. apply N.leb_le in H2. apply N.leb_le. lia. Qed.
  Lemma lebN_key (k : A -> N) x y : N.leb (k x) (k y) = true -> N.leb (k y) (k x) = true -> k x = k y.
  Proof. intros H1 H2. apply N.leb_le in H1. apply N.leb_le in H2. lia. Qed.

  Lemma lebZ_total (k : A -> Z) : le_total (fun x y => Z.leb (k x) (k y)).
  Proof. intros x y H. apply Z.leb_gt in H. apply Z.leb_le. lia. Qed.
  Lemma lebZ_trans (k : A -> Z) : le_trans (fun x y => Z.leb (k x) (k y)).
  Proof. intros x y z H1 H2. apply Z.leb_le in H1. apply Z.leb_le in H2. apply Z.leb_le. lia. Qed.
  Lemma lebZ_key (k : A -> Z) x y : Z.leb (k x) (k y) = true -> Z.leb (k y) (k x) = true -> k x = k y.
  Proof. intros H1 H2. apply Z.leb_le in H1. apply Z.leb_le in H2. lia. Qed.
End KeyOrders.

Lemma bid_le_total : le_total bid_le.
Proof. exact (lexb_total b_auction _ (lebN_total b_id)). Qed.
Lemma bid_le_trans : le_trans bid_le.
Proof. exact (lexb_trans b_auction _ (lebN_trans b_id)). Qed.
Lemma bid_le_key x y : bid_le x y = true -> bid_le y x = true -> (b_auction x, b_id x) = (b_auction y, b_id y).
Proof. exact (lexb_key b_auction _ b_id (lebN_key b_id) x y). Qed.

Lemma allowed_le_total : le_total allowed_le.
Proof. exact (lexb_total al_auction _ (lebN_total al_bidder)). Qed.
Lemma allowed_le_trans : le_trans allowed_le.
Proof. exact (lexb_trans al_auction _ (lebN_trans al_bidder)). Qed.
Lemma allowed_le_key x y :
  allowed_le x y = true -> allowed_le y x = true -> (al_auction x, al_bidder x) = (al_auction y, al_bidder y).
Proof. exact (lexb_key al_auction _ al_bidder (lebN_key al_bidder) x y). Qed.

Lemma vq_le_total : le_total vq_le.
Proof. exact (lexb_total v_auction _ (lebZ_total v_time)). Qed.
Lemma vq_le_trans : le_trans vq_le.
Proof. exact (lexb_trans v_auction _ (lebZ_trans v_time)). Qed.
Lemma vq_le_key x y : vq_le x y = true -> vq_le y x = true -> (v_auction x, v_time x) = (v_auction y, v_time y).
Proof. exact (lexb_key v_auction _ v_time (lebZ_key v_time) x y). Qed.

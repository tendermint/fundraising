(* The settlement of a started auction (fixed price: the end time is reached; batch: the last round closes), exactly.
   Its transfers, settle_xfers, are in order:
     selling escrow -> every bidder u with alloc u <> 0 (bidders sorted), alloc u
     selling escrow -> auctioneer, the whole rest of the selling escrow
     [batch only: wr = true] paying escrow -> every bidder u with refund u <> 0, refund u
     paying escrow -> auctioneer (no vesting schedule) or -> vesting escrow, the whole rest of the paying escrow.
   settle_gen is the settlement of either kind: CloseFixedPriceAuction and the settling branch of CloseBatchAuction are
   the same four steps of Step.v up to wr (close_fixed_gen, settle_batch_gen, both by computation), so it is written down
   here once, for the proofs.  settle_gen_iff gives the state it leaves as a term over the state before (settle_state)
   and says that it succeeds exactly when the allocation hook is not vetoed and the list pays; pays_settle_xfers says
   what that asks of the amounts, net_settle_esc and escrows_settled what is left in the escrows (both empty in their
   coin), settle_xfers_received what each user gets.
   Last, for C02 to C05: settles_with, which settlement a block makes of an auction, and dues, what the amounts of
   settle_xfers are within (established under the invariant in EscrowBlock).
   From outside the layer: total_of (EscrowBase), payouts (HookBase), alloc_args (HookSites, what the hook is given),
   matched_count (MatchConseq, in dues only); they are fixed where they are. *)
From Coq Require Import ZArith List Bool Lia Sorting.
From FR Require Import Dec Types Match Step Spec Checkers.
From FR.Proofs Require Import EscrowBase HookBase HookFacts HookSites ListFacts EqbFacts ResFacts VestingFacts Ledger.
From FR.Proofs Require BlockFacts MatchConseq.
Import ListNotations.
Open Scope Z_scope.

Definition vest_dest (a : auction) : addr :=
  match a_scheds a with [] => User (a_auctioneer a) | _ => Escrow Vesting (a_id a) end.
Definition unsold_of (s : state) (a : auction) (mi : minfo) : Z :=
  st_bal s (Escrow Selling (a_id a)) (a_sell_denom a) - total_of (mi_bidders mi) (mi_alloc mi).
Definition proceeds_of (s : state) (a : auction) (mi : minfo) (wr : bool) : Z :=
  st_bal s (Escrow Paying (a_id a)) (a_pay_denom a) - (if wr then total_of (mi_bidders mi) (mi_refund mi) else 0).

Definition settle_xfers (s : state) (a : auction) (mi : minfo) (wr : bool) : list xfer :=
  payouts (Escrow Selling (a_id a)) (a_sell_denom a) (mi_bidders mi) (mi_alloc mi)
  ++ send_xf (Escrow Selling (a_id a)) (User (a_auctioneer a)) (a_sell_denom a) (unsold_of s a mi)
  ++ (if wr then payouts (Escrow Paying (a_id a)) (a_pay_denom a) (mi_bidders mi) (mi_refund mi) else [])
  ++ send_xf (Escrow Paying (a_id a)) (vest_dest a) (a_pay_denom a) (proceeds_of s a mi wr).

Lemma not_user_esc r id : forall u, Escrow r id <> User u. Proof. intros u; discriminate. Qed.

(* a transfer out of an escrow account of auction id; one out of no escrow account of id (what the other auctions of a
   block book: ChkSettle.located).  Ledger.own_ends id: one that leaves the escrows of all other auctions alone *)
Definition src_of (id : N) (x : xfer) : Prop := exists r, x_from x = Escrow r id.
Definition not_src (id : N) (x : xfer) : Prop := forall r, x_from x <> Escrow r id.

(* a settlement pays out of the auction's escrows, to users or into its vesting escrow *)
Lemma settle_xfers_ends s a mi wr : Forall (fun y => src_of (a_id a) y /\ own_ends (a_id a) y) (settle_xfers s a mi wr).
Proof.
  assert (Hs : forall r g d z, FrameFacts.addr_ok (a_id a) g ->
            Forall (fun y => src_of (a_id a) y /\ own_ends (a_id a) y) (send_xf (Escrow r (a_id a)) g d z)).
  { intros r g d z Hg. unfold send_xf. destruct (z =? 0); constructor; [|constructor].
    split; [exists r; reflexivity|split; [reflexivity|exact Hg]]. }
  assert (Hp : forall r d us f, Forall (fun y => src_of (a_id a) y /\ own_ends (a_id a) y) (payouts (Escrow r (a_id a)) d us f)).
  { intros r d us f. unfold payouts. rewrite Forall_map, Forall_forall. intros u _.
    split; [exists r; reflexivity|split; [reflexivity|exact I]]. }
  unfold settle_xfers. rewrite !Forall_app. split; [apply Hp|]. split; [apply Hs; exact I|].
  split; [destruct wr; [apply Hp|constructor]|]. apply Hs. unfold vest_dest. destruct (a_scheds a); [exact I|reflexivity].
Qed.

(* the list reads only the escrow balances of the auction *)
Lemma settle_xfers_slice s s1 a mi wr : FrameFacts.slice_eq (a_id a) s s1 -> settle_xfers s1 a mi wr = settle_xfers s a mi wr.
Proof.
  intros S. unfold settle_xfers, unsold_of, proceeds_of.
  rewrite !(FrameFacts.se_bal _ _ _ S). reflexivity.
Qed.

(* wr says whether refunds are paid (batch) *)
Definition settle_gen (s : state) (a : auction) (mi : minfo) (wr : bool) : res state :=
  do s <- allocate s a mi wr;
  do s <- refund_selling s a;
  do s <- (if wr then pay_out s (Escrow Paying (a_id a)) (a_pay_denom a) (mi_bidders mi) (mi_refund mi) else Ok s);
  apply_vesting s a.

Lemma close_fixed_gen s a : close_fixed s a = settle_gen s a (calc_fixed a (bids_of s (a_id a))) false.
Proof. unfold close_fixed, settle_gen. reflexivity. Qed.
Lemma settle_batch_gen s a mi : settle_batch s a mi = settle_gen s a mi true.
Proof. reflexivity. Qed.

(* the instalments queued for the proceeds R *)
Definition new_vqs (a : auction) (R : Z) : list vq := match a_scheds a with [] => [] | vs => split a R R vs end.

Lemma new_vqs_auction a R v : In v (new_vqs a R) -> v_auction v = a_id a.
Proof. unfold new_vqs. destruct (a_scheds a); [intros []|apply BlockFacts.split_auction]. Qed.

(* ApplyVestingSchedules on a state whose paying escrow holds R *)
Definition vested (s : state) (a : auction) (R : Z) : state :=
  put_auction (with_vqs (banked s (send_xf (Escrow Paying (a_id a)) (vest_dest a) (a_pay_denom a) R))
                        (st_vqs s ++ new_vqs a R))
              (set_status a (BlockFacts.settled_st a)).

Lemma yields_apply_vesting s a :
  let R := st_bal s (Escrow Paying (a_id a)) (a_pay_denom a) in
  yields (apply_vesting s a) (pays (st_bal s) (send_xf (Escrow Paying (a_id a)) (vest_dest a) (a_pay_denom a) R)) (vested s a R).
Proof.
  unfold apply_vesting, vested, vest_dest, new_vqs, BlockFacts.settled_st. cbv zeta. destruct (a_scheds a) as [|v vs].
  all: eapply yields_conv; [eapply yields_bind; [apply yields_send|apply yields_ok]|tauto|].
  - (* without a schedule the queue is written back as it is *)
    intros _. rewrite app_nil_r. reflexivity.
  - reflexivity.
Qed.

Lemma apply_vesting_iff s a s' :
  apply_vesting s a = Ok s' <->
  0 <= st_bal s (Escrow Paying (a_id a)) (a_pay_denom a)
  /\ s' = vested s a (st_bal s (Escrow Paying (a_id a)) (a_pay_denom a)).
Proof. rewrite (yields_apply_vesting s a s'), pays_send_xf. intuition lia. Qed.

Definition settle_state (s : state) (a : auction) (mi : minfo) (wr : bool) : state :=
  put_auction (with_vqs (banked (hooked s H_BeforeAllocated (alloc_args a mi wr)) (settle_xfers s a mi wr))
                        (st_vqs s ++ new_vqs a (proceeds_of s a mi wr)))
              (set_status a (BlockFacts.settled_st a)).

Lemma yields_refunds (wr : bool) s from d us f :
  yields (if wr then pay_out s from d us f else Ok s)
         (pays (st_bal s) (if wr then payouts from d us f else [])) (banked s (if wr then payouts from d us f else [])).
Proof.
  destruct wr; [apply yields_pay_out|]. rewrite banked_nil.
  eapply yields_conv; [apply yields_ok|cbn [pays]; tauto|reflexivity].
Qed.

(* what the later payments of a settlement find in the two escrow accounts; s0 is s after the hook *)
Lemma bal_after_alloc s0 s a mi :
  st_bal s0 = st_bal s ->
  st_bal (banked s0 (payouts (Escrow Selling (a_id a)) (a_sell_denom a) (mi_bidders mi) (mi_alloc mi)))
         (Escrow Selling (a_id a)) (a_sell_denom a) = unsold_of s a mi.
Proof.
  intros E. rewrite banked_bal, E, net_payouts by apply not_user_esc.
  rewrite addr_eqb_refl, N.eqb_refl. unfold unsold_of, ind. cbn [andb]. lia.
Qed.
Lemma bal_after_refunds s0 s a mi (wr : bool) :
  st_bal s0 = st_bal s ->
  st_bal (banked s0 ((payouts (Escrow Selling (a_id a)) (a_sell_denom a) (mi_bidders mi) (mi_alloc mi)
                      ++ send_xf (Escrow Selling (a_id a)) (User (a_auctioneer a)) (a_sell_denom a) (unsold_of s a mi))
                     ++ (if wr then payouts (Escrow Paying (a_id a)) (a_pay_denom a) (mi_bidders mi) (mi_refund mi) else [])))
         (Escrow Paying (a_id a)) (a_pay_denom a) = proceeds_of s a mi wr.
Proof.
  intros E. rewrite banked_bal, E, !net_app, net_payouts, net_send_xf, net_refunds by apply not_user_esc.
  rewrite addr_eqb_refl, N.eqb_refl. cbn [addr_eqb role_eqb andb]. unfold proceeds_of, ind. destruct wr; cbn [andb]; lia.
Qed.

Theorem yields_settle_gen s a mi wr :
  yields (settle_gen s a mi wr)
         (no_veto s H_BeforeAllocated = true /\ pays (st_bal s) (settle_xfers s a mi wr)) (settle_state s a mi wr).
Proof.
  unfold settle_gen, allocate, refund_selling. cbv zeta. fold (alloc_args a mi wr).
  match goal with |- yields ?r _ _ => eassert (Y : yields r _ _) end.
  { eapply yields_bind; [eapply yields_bind; [apply yields_hook|apply yields_pay_out]|].
    eapply yields_bind; [apply yields_send|]. eapply yields_bind; [apply yields_refunds|apply yields_apply_vesting]. }
  (* the two whole balances sent on, in terms of s *)
  set (h := hooked s H_BeforeAllocated (alloc_args a mi wr)) in *.
  rewrite (bal_after_alloc h s a mi eq_refl), !banked_app, (bal_after_refunds h s a mi wr eq_refl) in Y.
  eapply yields_conv; [exact Y| |].
  - unfold settle_xfers. rewrite !pays_app, !apply_xfers_app. tauto.
  - intros _. unfold vested, settle_state, settle_xfers. cbv zeta. rewrite banked_app, <- !app_assoc. reflexivity.
Qed.

Theorem settle_gen_iff s a mi wr s' :
  settle_gen s a mi wr = Ok s' <->
  (no_veto s H_BeforeAllocated = true /\ pays (st_bal s) (settle_xfers s a mi wr)) /\ s' = settle_state s a mi wr.
Proof. apply yields_settle_gen. Qed.

(* a settlement ends with ApplyVestingSchedules, after steps that only move coins of the auction and call the hook *)
Lemma settle_gen_vesting s a mi wr s' :
  settle_gen s a mi wr = Ok s' -> exists s1, BlockFacts.bt_only (a_id a) s s1 /\ apply_vesting s1 a = Ok s'.
Proof.
  intros H. apply settle_gen_iff in H. destruct H as [[_ P] ->].
  pose proof (settle_xfers_ends s a mi wr) as E. unfold settle_xfers in P, E. rewrite !app_assoc in P, E.
  apply pays_app in P. destruct P as [_ P]. apply Forall_app in E. destruct E as [E _].
  (* s1: the hook called and all but the last transfer booked *)
  match type of E with Forall _ ?pre => exists (banked (hooked s H_BeforeAllocated (alloc_args a mi wr)) pre) end. split.
  - do 3 eexists. split; [reflexivity|]. apply apply_xfers_esc_keep. eapply Forall_impl; [|exact E]. intros y [_ O]. exact O.
  - apply yields_apply_vesting. rewrite (bal_after_refunds (hooked s H_BeforeAllocated (alloc_args a mi wr)) s a mi wr eq_refl).
    split; [exact P|].
    unfold settle_state, vested, settle_xfers. rewrite banked_app, !app_assoc. reflexivity.
Qed.
(* pays_app with the balances as those of a banked state, the form bal_after_* are stated in *)
Lemma pays_banked_app s xs ys : pays (st_bal s) (xs ++ ys) <-> pays (st_bal s) xs /\ pays (st_bal (banked s xs)) ys.
Proof. apply pays_app. Qed.

Lemma bal_after_unsold s a mi x :
  st_bal (banked s (payouts (Escrow Selling (a_id a)) (a_sell_denom a) (mi_bidders mi) (mi_alloc mi)
                    ++ send_xf (Escrow Selling (a_id a)) (User (a_auctioneer a)) (a_sell_denom a) x))
         (Escrow Paying (a_id a)) (a_pay_denom a) = st_bal s (Escrow Paying (a_id a)) (a_pay_denom a).
Proof.
  rewrite banked_bal, net_app, net_payouts, net_send_xf by apply not_user_esc. cbn [addr_eqb role_eqb andb]. unfold ind. lia.
Qed.

(* the list pays exactly when no amount is negative and neither escrow is overdrawn: the rest of each is sent on whole *)
Lemma pays_settle_xfers s a mi wr :
  pays (st_bal s) (settle_xfers s a mi wr) <->
  (forall u, In u (mi_bidders mi) -> 0 <= mi_alloc mi u) /\ 0 <= unsold_of s a mi
  /\ (wr = true -> forall u, In u (mi_bidders mi) -> 0 <= mi_refund mi u) /\ 0 <= proceeds_of s a mi wr.
Proof.
  unfold settle_xfers. rewrite !app_assoc, !pays_banked_app, !pays_send_xf, pays_payouts.
  rewrite (bal_after_refunds s s a mi wr eq_refl), (bal_after_alloc s s a mi eq_refl).
  assert (R : pays (st_bal (banked s (payouts (Escrow Selling (a_id a)) (a_sell_denom a) (mi_bidders mi) (mi_alloc mi)
                     ++ send_xf (Escrow Selling (a_id a)) (User (a_auctioneer a)) (a_sell_denom a) (unsold_of s a mi))))
                   (if wr then payouts (Escrow Paying (a_id a)) (a_pay_denom a) (mi_bidders mi) (mi_refund mi) else [])
              <-> (wr = true -> (forall u, In u (mi_bidders mi) -> 0 <= mi_refund mi u)
                                /\ (total_of (mi_bidders mi) (mi_refund mi) = 0
                                    \/ total_of (mi_bidders mi) (mi_refund mi) <= st_bal s (Escrow Paying (a_id a)) (a_pay_denom a)))).
  { destruct wr; [rewrite pays_payouts, bal_after_unsold; tauto|cbn [pays]; intuition discriminate]. }
  rewrite R. unfold unsold_of, proceeds_of. destruct wr; intuition (try discriminate; lia).
Qed.

(* the net effect on the three escrow accounts of the auction *)
Lemma net_settle_esc s a mi wr r d :
  net (settle_xfers s a mi wr) (Escrow r (a_id a)) d
  = - ind (role_eqb Selling r && N.eqb (a_sell_denom a) d) (st_bal s (Escrow Selling (a_id a)) (a_sell_denom a))
    - ind (role_eqb Paying r && N.eqb (a_pay_denom a) d) (st_bal s (Escrow Paying (a_id a)) (a_pay_denom a))
    + ind (addr_eqb (vest_dest a) (Escrow r (a_id a)) && N.eqb (a_pay_denom a) d) (proceeds_of s a mi wr).
Proof.
  unfold settle_xfers. rewrite !net_app, !net_send_xf, net_payouts, net_refunds by apply not_user_esc.
  cbn [addr_eqb]. rewrite !N.eqb_refl, !andb_true_r. unfold unsold_of, proceeds_of, ind.
  destruct wr, (role_eqb Selling r && N.eqb (a_sell_denom a) d), (role_eqb Paying r && N.eqb (a_pay_denom a) d);
    cbn [andb]; lia.
Qed.

(* both escrow accounts of a are empty, and the proceeds are in the vesting escrow if a has a schedule *)
Definition escrows_settled (s s' : state) (a : auction) (mi : minfo) (wr : bool) : Prop :=
  st_bal s' (Escrow Selling (a_id a)) (a_sell_denom a) = 0
  /\ st_bal s' (Escrow Paying (a_id a)) (a_pay_denom a) = 0
  /\ (a_scheds a <> [] ->
      st_bal s' (Escrow Vesting (a_id a)) (a_pay_denom a)
      = st_bal s (Escrow Vesting (a_id a)) (a_pay_denom a) + proceeds_of s a mi wr).

(* it takes the balances of the three escrow accounts of a only: what is known of them inside a block *)
Lemma escrows_settled_net s a mi wr s' :
  (forall r d, st_bal s' (Escrow r (a_id a)) d
               = st_bal s (Escrow r (a_id a)) d + net (settle_xfers s a mi wr) (Escrow r (a_id a)) d) ->
  escrows_settled s s' a mi wr.
Proof.
  intros B. unfold escrows_settled. rewrite !B, !net_settle_esc.
  unfold vest_dest, ind. cbn [role_eqb andb]. rewrite !N.eqb_refl.
  destruct (a_scheds a); cbn [addr_eqb role_eqb andb]; rewrite ?N.eqb_refl; cbn [andb].
  - split; [lia|]. split; [lia|]. intros Hs. contradiction.
  - split; [lia|]. split; [lia|]. intros _. lia.
Qed.

Lemma sum_xfers_payouts from d f p us :
  sum_xfers (payouts from d us f) p = sumZ (map (fun w => if p (mkx from (User w) d (f w)) then f w else 0) us).
Proof.
  unfold payouts. induction us as [|w r IH]; [reflexivity|].
  cbn [filter map]. rewrite sumZ_cons, <- IH.
  destruct (f w =? 0) eqn:E0; cbn [negb map].
  - apply Z.eqb_eq in E0. rewrite E0. destruct (p _); lia.
  - rewrite sum_xfers_cons. reflexivity.
Qed.

Lemma sum_xfers_payouts_to from d f us from' u d' : NoDup us ->
  sum_xfers (payouts from d us f) (from_to from' (User u) d')
  = ind (addr_eqb from from' && N.eqb d d' && existsb (N.eqb u) us) (f u).
Proof.
  intros Hnd. rewrite sum_xfers_payouts.
  rewrite (sumZ_map_ext _ (fun w => if N.eqb u w then ind (addr_eqb from from' && N.eqb d d') (f u) else 0)).
  - rewrite (sumZ_pick (N.eqb u)); [destruct (existsb _ us); rewrite ?andb_true_r, ?andb_false_r; reflexivity|exact Hnd|].
    intros x y _ _ Ex Ey. apply N.eqb_eq in Ex, Ey. congruence.
  - intros w _. unfold from_to, ind. cbn [mkx x_from x_to x_denom addr_eqb]. rewrite (N.eqb_sym w u).
    destruct (N.eqb_spec u w) as [->|_]; destruct (addr_eqb from from'), (N.eqb d d'); reflexivity.
Qed.

(* sum_xfers_send at a from_to filter, in the form the sums below are computed in *)
Lemma sum_xfers_send_xf f t d a f' t' d' :
  sum_xfers (send_xf f t d a) (from_to f' t' d') = ind (addr_eqb f f' && addr_eqb t t' && N.eqb d d') a.
Proof. apply sum_xfers_send. Qed.

Theorem settle_xfers_received s a mi wr u :
  NoDup (mi_bidders mi) ->
  sum_xfers (settle_xfers s a mi wr) (from_to (Escrow Selling (a_id a)) (User u) (a_sell_denom a))
  = (if existsb (N.eqb u) (mi_bidders mi) then mi_alloc mi u else 0)
    + (if N.eqb (a_auctioneer a) u then unsold_of s a mi else 0)
  /\
  sum_xfers (settle_xfers s a mi wr) (from_to (Escrow Paying (a_id a)) (User u) (a_pay_denom a))
  = (if wr && existsb (N.eqb u) (mi_bidders mi) then mi_refund mi u else 0)
    + (if match a_scheds a with [] => N.eqb (a_auctioneer a) u | _ => false end then proceeds_of s a mi wr else 0).
Proof.
  intros Hnd.
  assert (E3 : forall from' d',
            sum_xfers (if wr then payouts (Escrow Paying (a_id a)) (a_pay_denom a) (mi_bidders mi) (mi_refund mi) else [])
                      (from_to from' (User u) d')
            = ind (wr && (addr_eqb (Escrow Paying (a_id a)) from' && N.eqb (a_pay_denom a) d'
                          && existsb (N.eqb u) (mi_bidders mi))) (mi_refund mi u)).
  { intros from' d'. destruct wr; [apply sum_xfers_payouts_to, Hnd|apply sum_xfers_nil]. }
  unfold settle_xfers. rewrite !sum_xfers_app, !sum_xfers_send_xf, !E3, !sum_xfers_payouts_to by exact Hnd.
  cbn [addr_eqb role_eqb andb]. rewrite !N.eqb_refl, ?andb_false_r, ?andb_true_r.
  unfold ind, vest_dest. cbn [andb].
  destruct wr, (existsb (N.eqb u) (mi_bidders mi)), (a_scheds a); cbn [addr_eqb andb]; split; lia.
Qed.

Definition settles_with (t : Z) (orc : list (N * list N)) (s : state) (a : auction) (mi : minfo) (wr : bool) : Prop :=
  last_end a <= t /\
  ((a_type a = FixedPrice /\ wr = false /\ mi = calc_fixed a (bids_of s (a_id a)))
   \/ (a_type a = Batch /\ wr = true /\ BlockFacts.decision s a mi = false /\
       exists order, valid_order (bids_of s (a_id a)) (BlockFacts.oracle_ids orc (a_id a)) = Some order
                     /\ calc_batch a (bids_of s (a_id a)) order (allowed_of s (a_id a)) = Some mi)).

(* read by the kind of settlement: wr is the kind, and each kind says where mi comes from *)
Lemma settles_with_due t orc s a mi wr : settles_with t orc s a mi wr -> last_end a <= t.
Proof. intros [L _]. exact L. Qed.
Lemma settles_with_wr t orc s a mi wr :
  settles_with t orc s a mi wr -> wr = match a_type a with FixedPrice => false | Batch => true end.
Proof. intros [_ [(-> & -> & _)|(-> & -> & _)]]; reflexivity. Qed.
Lemma settles_with_fixed t orc s a mi :
  settles_with t orc s a mi false -> a_type a = FixedPrice /\ mi = calc_fixed a (bids_of s (a_id a)).
Proof. intros [_ [(Ty & _ & E)|(_ & C & _)]]; [auto|discriminate C]. Qed.
Lemma settles_with_batch t orc s a mi :
  settles_with t orc s a mi true ->
  a_type a = Batch /\ BlockFacts.decision s a mi = false /\
  exists order, valid_order (bids_of s (a_id a)) (BlockFacts.oracle_ids orc (a_id a)) = Some order
                /\ calc_batch a (bids_of s (a_id a)) order (allowed_of s (a_id a)) = Some mi.
Proof. intros [_ [(_ & C & _)|(Ty & _ & D & M)]]; [discriminate C|auto]. Qed.

Lemma settled_st_cases a : BlockFacts.settled_st a = VestingS \/ BlockFacts.settled_st a = Finished.
Proof. exact (BlockFacts.settled_st_cases a). Qed.

Record dues (s : state) (a : auction) (mi : minfo) (wr : bool) : Prop := {
  du_bidders : mi_bidders mi = bidders_of (bids_of s (a_id a));
  du_sorted : StronglySorted N.lt (mi_bidders mi);
  du_alloc : forall u, 0 <= mi_alloc mi u;
  du_alloc_sum : total_of (mi_bidders mi) (mi_alloc mi) <= a_sell_amt a;
  du_unsold : a_sell_amt a - total_of (mi_bidders mi) (mi_alloc mi) <= unsold_of s a mi;
  du_refund : forall u, 0 <= mi_refund mi u <= reserved_of (a_pay_denom a) (bids_of s (a_id a)) u;
  (* the proceeds are at least the payments of all bidders (more only by third-party deposits) *)
  du_proceeds : sumZ (map (fun u => reserved_of (a_pay_denom a) (bids_of s (a_id a)) u - (if wr then mi_refund mi u else 0))
                          (mi_bidders mi)) <= proceeds_of s a mi wr;
  du_fixed : wr = false -> forall u,
      mi_alloc mi u = sumZ (map (sell_amount (a_pay_denom a)) (filter (fun b => N.eqb (b_bidder b) u) (bids_of s (a_id a))))
      /\ mi_refund mi u = 0;
  (* batch: what is paid is the allocation at the clearing price, rounded up once per matched bid (P is Dec.P, the
     precision of prices) *)
  du_batch : wr = true -> forall u,
      let paid := reserved_of (a_pay_denom a) (bids_of s (a_id a)) u - mi_refund mi u in
      mi_price mi * mi_alloc mi u <= paid * P
      <= mi_price mi * mi_alloc mi u + MatchConseq.matched_count (bids_of s (a_id a)) (mi_matched mi) u * (P - 1)
}.

Lemma dues_slice s s1 a mi wr : FrameFacts.slice_eq (a_id a) s s1 -> dues s1 a mi wr -> dues s a mi wr.
Proof.
  intros S [D1 D2 D3 D4 D5 D6 D7 D8 D9]. pose proof (FrameFacts.se_bids _ _ _ S) as Eb.
  unfold unsold_of, proceeds_of in *. rewrite !(FrameFacts.se_bal _ _ _ S) in *. rewrite Eb in *.
  split; assumption.
Qed.

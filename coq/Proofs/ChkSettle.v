(* Checker links, common part: what a checker sees of ONE auction in the transition it observes.  (How a link reaches the
   step of the model at all: FixedFacts.v, "the transition the checkers judge".)
   A successful block processes every auction once, by one of the five actions of BlockWalk.act, from a state that has the
   auction's slice as it was at the beginning, and nothing else touches that slice or moves coins out of the auction's
   escrows (located).  block_view_holds says it from the two ends of the block: the action chosen at the beginning, the record,
   the queue, the bids and the escrow balances at the end as the action leaves them, where in the log of the block the
   transfers of the action stand (bv_log), and so (bv_local) that a filter which only accepts transfers out of the
   auction's escrows sees of the whole block exactly the transfers of the action.
   For an auction that settles, settle_view adds what the invariant says of the amounts, over the transfers xs of the
   transition: where the settlement stands in them (sv_log), the books afterwards, the escrow accounts emptied.  It holds
   of the auction processed alone (settling_step: xs is the settlement), of a block (block_settlement_located), of a step
   (only a successful block settles: settling_needs_block) and of model_trans (settling_facts), where the sums
   sv_received and sv_refunded are `received` and `refunded` of c03_ok, c04_ok, c05_ok. *)
From Coq Require Import ZArith NArith List Bool Lia.
From FR Require Import Types Match Step Model Checkers.
From FR.Proofs Require Import ListFacts EqbFacts InvDefs FrameFacts BlockFacts BlockWalk VestingFacts Ledger
     LedgerCharges LedgerSettle.
From FR.Proofs Require ResFacts InvAll FixedFacts GenesisFacts PublishFacts EscrowBlock MatchBase MatchDemand VestingInv.
Import ListNotations.
Open Scope Z_scope.

Lemma not_genesis_match (o : op) (b : bool) :
  (o <> OGenesis -> b = true) -> match o with OGenesis => true | _ => b end = true.
Proof. intros H. destruct o; try reflexivity; apply H; discriminate. Qed.

Lemma filter_not_from id (p : xfer -> bool) xs :
  (forall x, p x = true -> src_of id x) -> Forall (not_src id) xs -> filter p xs = [].
Proof.
  intros Hp H. apply filter_nil_iff. intros x Hx.
  destruct (p x) eqn:E; [|reflexivity]. exfalso.
  rewrite Forall_forall in H. destruct (Hp x E) as [r C]. exact (H x Hx r C).
Qed.

Lemma filter_block id (p : xfer -> bool) xs0 pre mid post :
  (forall x, p x = true -> src_of id x) -> Forall (not_src id) pre -> Forall (not_src id) post ->
  filter p (xs0 ++ pre ++ mid ++ post) = filter p xs0 ++ filter p mid.
Proof.
  intros Hp F1 F3. rewrite !filter_app, (filter_not_from id p pre Hp F1), (filter_not_from id p post Hp F3), app_nil_r.
  reflexivity.
Qed.

(* the boolean tests of the checkers against LedgerSettle.src_of *)
Lemma from_src r id x : addr_eqb (x_from x) (Escrow r id) = true -> src_of id x.
Proof.
  intros H. apply addr_eqb_eq in H.
  exists r. exact H.
Qed.
Lemma from_to_src r id g d x : from_to (Escrow r id) g d x = true -> src_of id x.
Proof.
  unfold from_to. intros H.
  apply andb_true_iff in H. destruct H as [H _].
  apply andb_true_iff in H. destruct H as [H _].
  exact (from_src r id x H).
Qed.

Lemma sum_xfers_not_to g xs f d : Forall (fun x => x_to x <> g) xs -> sum_xfers xs (from_to f g d) = 0.
Proof.
  intros H. apply sum_xfers_none.
  intros x Hx. unfold from_to.
  destruct (addr_eqb (x_to x) g) eqn:E; [|rewrite andb_false_r; reflexivity].
  apply addr_eqb_eq in E. rewrite Forall_forall in H. destruct (H x Hx E).
Qed.

(* ------------------------------------------------------------------ where in a block one auction is processed *)

(* The walk from s to s' processes a from s1 to s2: it splits into the auctions before a, a itself and the auctions after
   a; what the others book (pre, post) does not leave an escrow account of a, and only a's own step touches its slice. *)
Record located (t : Z) (orc : list (N * list N)) (s s' : state) (a : auction) (s1 s2 : state) (pre post : list xfer)
  : Prop := {
  lo_inv : Inv s1;
  lo_in : In a (st_auctions s1);
  lo_before : slice_eq (a_id a) s s1;
  lo_params : st_params s1 = st_params s;
  lo_process : process t orc s1 a = Ok s2;
  lo_after : slice_eq (a_id a) s2 s';
  lo_pre : ledger_by s s1 pre;
  lo_post : ledger_by s2 s' post;
  lo_pre_src : Forall (not_src (a_id a)) pre;
  lo_post_src : Forall (not_src (a_id a)) post }.
Arguments lo_inv {_} {_} {_} {_} {_} {_} {_} {_} {_} _.
Arguments lo_in {_} {_} {_} {_} {_} {_} {_} {_} {_} _.
Arguments lo_before {_} {_} {_} {_} {_} {_} {_} {_} {_} _.
Arguments lo_params {_} {_} {_} {_} {_} {_} {_} {_} {_} _.
Arguments lo_process {_} {_} {_} {_} {_} {_} {_} {_} {_} _.
Arguments lo_after {_} {_} {_} {_} {_} {_} {_} {_} {_} _.
Arguments lo_pre {_} {_} {_} {_} {_} {_} {_} {_} {_} _.
Arguments lo_post {_} {_} {_} {_} {_} {_} {_} {_} {_} _.
Arguments lo_pre_src {_} {_} {_} {_} {_} {_} {_} {_} {_} _.
Arguments lo_post_src {_} {_} {_} {_} {_} {_} {_} {_} {_} _.

Lemma process_all_located t orc l s s' a :
  Inv s -> NoDup (map a_id l) -> (forall x, In x l -> In x (st_auctions s)) ->
  process_all t orc s l = Ok s' -> In a l ->
  exists s1 s2 pre post, located t orc s s' a s1 s2 pre post.
Proof.
  intros I ND Hl H Ha. apply in_split in Ha. destruct Ha as (l1 & l2 & ->).
  rewrite map_app in ND. cbn [map] in ND. destruct (NoDup_app_parts _ _ ND) as (ND1 & ND2 & Hd).
  inversion ND2 as [|? ? Hn2 ND2']; subst.
  assert (Hn1 : ~ In (a_id a) (map a_id l1)) by (intros C; apply (Hd _ C); left; reflexivity).
  apply process_all_app in H. destruct H as (s1 & H1 & H). cbn [process_all] in H.
  apply ResFacts.bind_ok_inv in H. destruct H as (s2 & Hp & H2).
  assert (Hl1 : forall x, In x l1 -> In x (st_auctions s)) by (intros x Hx; apply Hl, in_or_app; left; exact Hx).
  pose proof (fun j => process_all_frame t orc l1 s s1 j) as Sl1. pose proof (fun j => process_all_frame t orc l2 s2 s' j) as Sl2.
  (* what the other auctions book does not leave an escrow account of a *)
  assert (Hother : forall l0 xs, ~ In (a_id a) (map a_id l0) -> Forall (src_in l0) xs -> Forall (not_src (a_id a)) xs).
  { intros l0 xs Hn. apply Forall_impl. intros y (b & Hb & r & E) q C. apply Hn.
    rewrite E in C. injection C as _ C. rewrite <- C. apply in_map, Hb. }
  destruct (process_all_ledger t orc l1 s s1 H1) as (pre & L1 & F1). apply (Hother l1 _ Hn1) in F1.
  destruct (process_all_ledger t orc l2 s2 s' H2) as (post & L2 & F2). apply (Hother l2 _ Hn2) in F2.
  exists s1, s2, pre, post. constructor; try assumption.
  - apply (InvAll.Inv_process_all t orc l1 s s1 I ND1 Hl1 H1).
  - apply (find_auction_some s1 (a_id a)). rewrite (se_auction _ _ _ (Sl1 _ Hn1 H1)).
    apply InvAll.Inv_find_in; [exact I|]. apply Hl, in_or_app. right. left. reflexivity.
  - exact (Sl1 _ Hn1 H1).
  - exact (ge_params (we_glob _ _ (process_all_eff t orc l1 s s1 H1))).
  - exact (Sl2 _ Hn2 H2).
Qed.

Lemma block_located s t orc s' a :
  Inv s -> begin_block s t orc = Ok s' -> In a (st_auctions s) ->
  exists s1 s2 pre post, located t orc s s' a s1 s2 pre post.
Proof.
  intros I H Ha. rewrite begin_block_eq in H.
  destruct (process_all_located t orc _ (with_now s t) s' a (InvAll.Inv_with_now s t I) (proj1 (InvAll.Inv_ids_ok s I))
              (fun y Hy => Hy) H Ha) as (s1 & s2 & pre & post & [I1 Hin1 S1 Ep Hp S2 L1 L2 F1 F2]).
  (* with_now s t has the slices, the parameters and the bank of s *)
  exists s1, s2, pre, post. constructor; try assumption.
  - eapply slice_eq_trans; [|exact S1]. split; reflexivity.
  - eapply ledger_by_pre; [|exact L1]. split; reflexivity.
Qed.

(* an id that has no auction in the first state of a block is left alone *)
Lemma block_absent s t orc s' j :
  Inv s -> begin_block s t orc = Ok s' -> find_auction s j = None ->
  slice_eq j s s' /\ exists xs, st_xfers s' = st_xfers s ++ xs /\ Forall (not_src j) xs.
Proof.
  intros I H Fj. split.
  - exact (begin_block_absent s t orc s' (InvAll.Inv_ids_ok s I) H j Fj).
  - destruct (begin_block_ledger_by s t orc s' H) as (xs & L & F). exists xs. split; [exact (lb_xfers _ _ _ L)|].
    revert F. apply Forall_impl. intros x (a & Ha & r & E) q C. rewrite E in C. injection C as _ C.
    rewrite <- C, (InvAll.Inv_find_in s a I Ha) in Fj. discriminate Fj.
Qed.

(* ------------------------------------------------------------------ one auction in a block *)

Lemma proceeds_of_slice s s1 a mi wr : slice_eq (a_id a) s s1 -> proceeds_of s1 a mi wr = proceeds_of s a mi wr.
Proof. intros S. unfold proceeds_of. rewrite !(se_bal _ _ _ S). reflexivity. Qed.
Lemma unsold_of_slice s s1 a mi : slice_eq (a_id a) s s1 -> unsold_of s1 a mi = unsold_of s a mi.
Proof. intros S. unfold unsold_of. rewrite !(se_bal _ _ _ S). reflexivity. Qed.

(* the bids and the recorded count of the auction after its turn in a block *)
Lemma act_bids_mlen t s a x :
  bids_of (act_state t s a x) (a_id a)
  = match x with
    | AExtend mi | ASettle mi true => map (PublishFacts.flag_with (mi_matched mi)) (bids_of s (a_id a))
    | _ => bids_of s (a_id a)
    end
  /\ st_mlen (act_state t s a x) (a_id a)
     = match x with AExtend mi | ASettle mi true => Z.of_nat (length (mi_matched mi)) | _ => st_mlen s (a_id a) end.
Proof.
  rewrite act_state_eq. unfold bids_of at 1. cbn [st_bids st_mlen]. fold (bids_of (act_flags s a x) (a_id a)).
  destruct x as [| |mi|mi [|]|]; cbn [act_flags]; split; try reflexivity; apply PublishFacts.set_flags_bids_of || apply PublishFacts.set_flags_mlen.
Qed.

(* What a successful block does to the auction a of its first state s, seen from s and the last state s': x is the
   action that processed a. *)
Record block_view (t : Z) (orc : list (N * list N)) (s s' : state) (a : auction) (x : act) : Prop := {
  bv_chosen : chosen t orc s a x;
  bv_find : find_auction s' (a_id a) = Some (act_record t s a x);
  bv_log : exists pre post, st_xfers s' = st_xfers s ++ pre ++ act_xfers t s a x ++ post
                            /\ Forall (not_src (a_id a)) pre /\ Forall (not_src (a_id a)) post;
  bv_bal : forall r d,
    st_bal s' (Escrow r (a_id a)) d = st_bal s (Escrow r (a_id a)) d + net (act_xfers t s a x) (Escrow r (a_id a)) d;
  bv_vqs : vqs_of s' (a_id a)
           = match x with
             | ASettle mi wr => vqs_of s (a_id a) ++ new_vqs a (proceeds_of s a mi wr)
             | ARelease => map (release_vq (a_id a) t) (vqs_of s (a_id a))
             | _ => vqs_of s (a_id a)
             end;
  bv_bids : bids_of s' (a_id a)
            = match x with
              | AExtend mi | ASettle mi true => map (PublishFacts.flag_with (mi_matched mi)) (bids_of s (a_id a))
              | _ => bids_of s (a_id a)
              end;
  bv_mlen : st_mlen s' (a_id a)
            = match x with
              | AExtend mi | ASettle mi true => Z.of_nat (length (mi_matched mi))
              | _ => st_mlen s (a_id a)
              end;
  bv_pays : match x with ASettle mi wr => 0 <= unsold_of s a mi /\ 0 <= proceeds_of s a mi wr | _ => True end;
  bv_idle : x = AIdle -> slice_eq (a_id a) s s' }.
Arguments bv_chosen {_} {_} {_} {_} {_} {_} _.
Arguments bv_find {_} {_} {_} {_} {_} {_} _.
Arguments bv_log {_} {_} {_} {_} {_} {_} _.
Arguments bv_bal {_} {_} {_} {_} {_} {_} _.
Arguments bv_vqs {_} {_} {_} {_} {_} {_} _.
Arguments bv_bids {_} {_} {_} {_} {_} {_} _.
Arguments bv_mlen {_} {_} {_} {_} {_} {_} _.
Arguments bv_pays {_} {_} {_} {_} {_} {_} _.
Arguments bv_idle {_} {_} {_} {_} {_} {_} _.

Theorem block_view_holds s t orc s' a :
  Inv s -> begin_block s t orc = Ok s' -> In a (st_auctions s) -> exists x, block_view t orc s s' a x.
Proof.
  intros I H Ha.
  destruct (block_located s t orc s' a I H Ha) as (s1 & s2 & pre & post & [I1 Hin1 S1 Ep Hp S2 L1 L2 F1 F3]).
  pose proof (InvAll.Inv_find_in s1 a I1 Hin1) as Fa1.
  apply process_iff in Hp. destruct Hp as (x & C & P & ->). exists x.
  pose proof (act_ledger t s1 a x P) as La.
  (* the transfers and the record of the action are those it has from s *)
  assert (Ex : act_xfers t s1 a x = act_xfers t s a x).
  { destruct x; cbn [act_xfers]; try reflexivity; [apply settle_xfers_slice, S1|rewrite (se_vqs _ _ _ S1); reflexivity]. }
  assert (Er : act_record t s1 a x = act_record t s a x).
  { destruct x; cbn [act_record]; try reflexivity; [apply (decision_slice s s1 a mi S1 Ep)|rewrite (se_vqs _ _ _ S1); reflexivity]. }
  constructor.
  - exact (chosen_slice t orc s s1 a x S1 Ep C).
  - rewrite (se_auction _ _ _ S2), <- Er. apply act_find, Fa1.
  - exists pre, post. split; [|split; assumption].
    rewrite <- Ex, (lb_xfers _ _ _ L2), (lb_xfers _ _ _ La), (lb_xfers _ _ _ L1), <- !app_assoc. reflexivity.
  - intros r d. rewrite (se_bal _ _ _ S2), (ledger_bal _ _ _ _ _ La), (se_bal _ _ _ S1), Ex. reflexivity.
  - rewrite (se_vqs _ _ _ S2). destruct x as [| |mi|mi wr|]; cbn [act_state]; try exact (se_vqs _ _ _ S1).
    + rewrite settled_own_vqs, (se_vqs _ _ _ S1), (proceeds_of_slice s s1 a mi wr S1). reflexivity.
    + rewrite (released_vqs_of s1 a t _ (VestingInv.vqs_wf_nodup s1 (inv_vqs _ I1))), N.eqb_refl, (se_vqs _ _ _ S1). reflexivity.
  - rewrite (se_bids _ _ _ S2), (proj1 (act_bids_mlen t s1 a x)), (se_bids _ _ _ S1). reflexivity.
  - rewrite (se_mlen _ _ _ S2), (proj2 (act_bids_mlen t s1 a x)), (se_mlen _ _ _ S1). reflexivity.
  - destruct x as [| |mi|mi wr|]; try exact Logic.I. destruct P as [_ P]. apply pays_settle_xfers in P.
    rewrite <- (unsold_of_slice s s1 a mi S1), <- (proceeds_of_slice s s1 a mi wr S1). tauto.
  - intros ->. eapply slice_eq_trans; [exact S1|exact S2].
Qed.

(* a filter that only accepts transfers out of the escrows of a sees of the whole block exactly those of the action *)
Lemma bv_local {t orc s s' a x} :
  block_view t orc s s' a x -> forall p : xfer -> bool, (forall y, p y = true -> src_of (a_id a) y) ->
  filter p (st_xfers s') = filter p (st_xfers s) ++ filter p (act_xfers t s a x).
Proof.
  intros V p Hp. destruct (bv_log V) as (pre & post & X & F1 & F3). rewrite X.
  apply (filter_block (a_id a)); assumption.
Qed.

(* ------------------------------------------------------------------ an auction that settles *)

(* what the checkers see of an auction a that a block from s to s' with the transfers xs settles (a' afterwards), in terms of the outcome mi
   of its matching; wr says that the settlement publishes a price and matched flags, which only a batch auction does *)
Record settle_view (s s' : state) (xs : list xfer) (a a' : auction) (t : Z) (orc : list (N * list N)) (mi : minfo)
    (wr : bool) : Prop := {
  sv_pre : find_auction s (a_id a) = Some a;
  sv_book : MatchDemand.book_wf (bids_of s (a_id a)) (allowed_of s (a_id a));
  sv_supply : 0 <= a_sell_amt a;
  sv_settles : settles_with t orc s a mi wr;
  sv_dues : dues s a mi wr;
  sv_log : exists pre post, xs = pre ++ settle_xfers s a mi wr ++ post
                            /\ Forall (not_src (a_id a)) pre /\ Forall (not_src (a_id a)) post;
  sv_batch : wr = true ->
    a_matched_price a' = mi_price mi
    /\ bids_of s' (a_id a) = map (PublishFacts.flag_with (mi_matched mi)) (bids_of s (a_id a))
    /\ PublishFacts.flagged (bids_of s' (a_id a)) mi
    /\ st_mlen s' (a_id a) = Z.of_nat (length (mi_matched mi));
  sv_fixed : wr = false -> bids_of s' (a_id a) = bids_of s (a_id a);
  sv_proceeds : 0 <= proceeds_of s a mi wr;
  sv_status : a_status a' = settled_st a;
  sv_vqs : vqs_of s' (a_id a) = new_vqs a (proceeds_of s a mi wr);
  sv_escrows : escrows_settled s s' a mi wr }.
Arguments sv_pre {_} {_} {_} {_} {_} {_} {_} {_} {_} _.
Arguments sv_book {_} {_} {_} {_} {_} {_} {_} {_} {_} _.
Arguments sv_supply {_} {_} {_} {_} {_} {_} {_} {_} {_} _.
Arguments sv_settles {_} {_} {_} {_} {_} {_} {_} {_} {_} _.
Arguments sv_dues {_} {_} {_} {_} {_} {_} {_} {_} {_} _.
Arguments sv_log {_} {_} {_} {_} {_} {_} {_} {_} {_} _.
Arguments sv_batch {_} {_} {_} {_} {_} {_} {_} {_} {_} _.
Arguments sv_fixed {_} {_} {_} {_} {_} {_} {_} {_} {_} _.
Arguments sv_proceeds {_} {_} {_} {_} {_} {_} {_} {_} {_} _.
Arguments sv_status {_} {_} {_} {_} {_} {_} {_} {_} {_} _.
Arguments sv_vqs {_} {_} {_} {_} {_} {_} {_} {_} {_} _.
Arguments sv_escrows {_} {_} {_} {_} {_} {_} {_} {_} {_} _.

(* a filter that only accepts transfers out of the escrows of a sees of xs exactly those of the settlement *)
Lemma sv_local {s s' xs a a' t orc mi wr} :
  settle_view s s' xs a a' t orc mi wr -> forall p : xfer -> bool, (forall y, p y = true -> src_of (a_id a) y) ->
  filter p xs = filter p (settle_xfers s a mi wr).
Proof.
  intros V p Hp. destruct (sv_log V) as (pre & post & -> & F1 & F3).
  exact (filter_block (a_id a) p [] pre _ post Hp F1 F3).
Qed.

Lemma sv_unsold {s s' xs a a' t orc mi wr} : settle_view s s' xs a a' t orc mi wr -> 0 <= unsold_of s a mi.
Proof.
  intros V. pose proof (du_unsold _ _ _ _ (sv_dues V)). pose proof (du_alloc_sum _ _ _ _ (sv_dues V)). lia.
Qed.

Lemma sv_paying {s s' xs a a' t orc mi wr} :
  settle_view s s' xs a a' t orc mi wr -> st_bal s' (Escrow Paying (a_id a)) (a_pay_denom a) = 0.
Proof. intros V. apply (sv_escrows V). Qed.

Lemma settle_view_of s s' xs a t orc mi wr :
  Inv s -> In a (st_auctions s) -> a_status a = Started -> settles_with t orc s a mi wr ->
  st_xfers s' = st_xfers s ++ xs -> block_view t orc s s' a (ASettle mi wr) ->
  settle_view s s' xs a (act_record t s a (ASettle mi wr)) t orc mi wr.
Proof.
  intros I Ha St Hw X V.
  pose proof (InvAll.Inv_find_in s a I Ha) as Fa.
  pose proof (EscrowBlock.Inv_book_wf s (a_id a) I) as BW.
  assert (Hsup : 0 <= a_sell_amt a) by (pose proof (awf_amt _ (EscrowBlock.Inv_find_wf s a I Fa)); lia).
  pose proof (bv_bids V) as B. pose proof (bv_mlen V) as M. cbv beta iota in B, M.
  constructor; try assumption.
  - exact (EscrowBlock.settles_dues t orc s a mi wr I Fa St Hw).
  - destruct (bv_log V) as (pre & post & X' & F). rewrite X in X'. apply app_inv_head in X'.
    exists pre, post. split; [exact X'|exact F].
  - intros ->. split; [reflexivity|]. split; [exact B|]. split; [|exact M].
    destruct (settles_with_batch _ _ _ _ _ Hw) as (_ & _ & order & HV & HC).
    rewrite B. exact (PublishFacts.flagged_facts a _ _ order _ mi BW HV Hsup HC).
  - intros ->. exact B.
  - apply (bv_pays V).
  - reflexivity.
  - rewrite (bv_vqs V), (EscrowBlock.started_no_vqs s a I Fa St). reflexivity.
  - exact (escrows_settled_net s a mi wr s' (bv_bal V)).
Qed.

(* processing alone: the settlement is the whole of the transfers *)
Lemma settling_step t orc s a s' a' :
  Inv s -> find_auction s (a_id a) = Some a -> a_status a = Started -> process t orc s a = Ok s' ->
  find_auction s' (a_id a) = Some a' -> (a_status a' = VestingS \/ a_status a' = Finished) ->
  exists mi wr, ledger_by s s' (settle_xfers s a mi wr) /\ settle_view s s' (settle_xfers s a mi wr) a a' t orc mi wr.
Proof.
  intros I Fa St H Fa' Hst'. apply process_iff in H. destruct H as (x & C & P & ->).
  rewrite (act_find t s a x Fa) in Fa'. injection Fa' as <-.
  destruct (settling_act t orc s a x St C Hst') as (mi & wr & -> & Hw). exists mi, wr.
  pose proof (act_ledger t s a (ASettle mi wr) P) as L. split; [exact L|].
  apply (settle_view_of s _ _ a t orc mi wr I (proj1 (find_auction_some _ _ _ Fa)) St Hw (lb_xfers _ _ _ L)).
  constructor.
  - exact C.
  - apply act_find, Fa.
  - exists [], []. cbn [act_xfers app]. rewrite app_nil_r. split; [exact (lb_xfers _ _ _ L)|split; constructor].
  - intros r d. apply (ledger_bal _ _ _ _ _ L).
  - apply settled_own_vqs.
  - exact (proj1 (act_bids_mlen t s a (ASettle mi wr))).
  - exact (proj2 (act_bids_mlen t s a (ASettle mi wr))).
  - destruct P as [_ P]. apply pays_settle_xfers in P. tauto.
  - discriminate.
Qed.

Theorem block_settlement_located s t orc s' a a' :
  Inv s -> begin_block s t orc = Ok s' -> In a (st_auctions s) -> a_status a = Started ->
  find_auction s' (a_id a) = Some a' -> (a_status a' = VestingS \/ a_status a' = Finished) ->
  exists xs mi wr, st_xfers s' = st_xfers s ++ xs /\ settle_view s s' xs a a' t orc mi wr.
Proof.
  intros I H Ha St Fa' Hst'. destruct (block_view_holds s t orc s' a I H Ha) as (x & V).
  rewrite (bv_find V) in Fa'. injection Fa' as <-.
  destruct (settling_act t orc s a x St (bv_chosen V) Hst') as (mi & wr & -> & Hw).
  destruct (bv_log V) as (pre & post & X & _). eexists. exists mi, wr. split; [exact X|].
  exact (settle_view_of s s' _ a t orc mi wr I Ha St Hw X V).
Qed.

Lemma not_bidder_all bs u :
  existsb (N.eqb u) (bidders_of bs) = false -> forall b, In b bs -> N.eqb (b_bidder b) u = false.
Proof.
  intros H b Hb. destruct (N.eqb (b_bidder b) u) eqn:E; [|reflexivity]. apply N.eqb_eq in E.
  assert (X : existsb (N.eqb u) (bidders_of bs) = true); [|congruence].
  apply existsb_exists. exists u. split; [|apply N.eqb_refl].
  apply MatchBase.bidders_of_in. eauto.
Qed.

Lemma not_bidder_filter bs u :
  existsb (N.eqb u) (bidders_of bs) = false -> filter (fun b => N.eqb (b_bidder b) u) bs = [].
Proof. intros H. apply filter_nil_iff. exact (not_bidder_all bs u H). Qed.

Lemma in_paired t a a' :
  In (a, a') (paired t) <-> In a (st_auctions (t_pre t)) /\ find_auction (t_post t) (a_id a) = Some a'.
Proof. exact (in_flat_map_pairs (fun x => find_auction (t_post t) (a_id x)) _ a a'). Qed.

Lemma settled_true st : settled st = true <-> st = VestingS \/ st = Finished.
Proof. unfold settled. rewrite orb_true_iff, !status_eqb_eq. reflexivity. Qed.

Lemma in_settling t a a' :
  In (a, a') (settling t) <->
  In a (st_auctions (t_pre t)) /\ find_auction (t_post t) (a_id a) = Some a'
  /\ a_status a = Started /\ (a_status a' = VestingS \/ a_status a' = Finished).
Proof.
  unfold settling. rewrite filter_In, in_paired.
  cbn [fst snd]. rewrite andb_true_iff, settled_true, status_eqb_eq.
  tauto.
Qed.

(* of the things a step does to an auction record (LifeTheorems.astep) only the processing in a successful block settles *)
Lemma settling_needs_block s o a a' :
  Inv s -> In a (st_auctions s) -> a_status a = Started ->
  find_auction (snd (step s o)) (a_id a) = Some a' -> (a_status a' = VestingS \/ a_status a' = Finished) ->
  is_block o = true /\ fst (step s o) = BlockOk
  /\ begin_block s (block_time o) (block_orc o) = Ok (snd (step s o)).
Proof.
  intros I Ha St F' Hst'.
  destruct (GenesisFacts.step_astep s o (a_id a) a (or_introl (inv_ids _ I)) (InvAll.Inv_find_in s a I Ha)) as (a2 & F2 & R).
  rewrite F' in F2. injection F2 as <-.
  assert (No : a_status a' = Started -> False) by (intros E; rewrite E in Hst'; destruct Hst'; discriminate).
  destruct R as [_|who _ _ C|who bt p c x _ _ _|a1 B Ho _]; try (destruct (No St)); [congruence|].
  split; [exact B|]. split; [exact Ho|exact (step_block_ok s o B Ho)].
Qed.

(* the same for a step of the model: only a successful block settles *)
Theorem step_settle_view s o xs a a' :
  Inv s -> st_xfers (snd (step s o)) = st_xfers s ++ xs -> In a (st_auctions s) -> a_status a = Started ->
  find_auction (snd (step s o)) (a_id a) = Some a' -> (a_status a' = VestingS \/ a_status a' = Finished) ->
  exists mi wr, settle_view s (snd (step s o)) xs a a' (block_time o) (block_orc o) mi wr.
Proof.
  intros I X Ha St F' Hst'. destruct (settling_needs_block s o a a' I Ha St F' Hst') as (_ & _ & K).
  destruct (block_settlement_located s _ _ _ a a' I K Ha St F' Hst') as (xs0 & mi & wr & X0 & V).
  rewrite X in X0. apply app_inv_head in X0. subst xs0. exists mi, wr. exact V.
Qed.

(* the sums a checker takes over the transfers of the transition *)
Section Reads.
  Context {s s' : state} {xs : list xfer} {a a' : auction} {t : Z} {orc : list (N * list N)} {mi : minfo} {wr : bool}.
  Hypothesis V : settle_view s s' xs a a' t orc mi wr.

  Lemma sv_sum r to d :
    sum_xfers xs (from_to (Escrow r (a_id a)) to d) = sum_xfers (settle_xfers s a mi wr) (from_to (Escrow r (a_id a)) to d).
  Proof. unfold sum_xfers. rewrite (sv_local V _ (from_to_src r (a_id a) to d)). reflexivity. Qed.

  Lemma sv_nodup : NoDup (mi_bidders mi).
  Proof. apply ListFacts.sorted_lt_nodup, (du_sorted _ _ _ _ (sv_dues V)). Qed.

  Lemma sv_received u :
    sum_xfers xs (from_to (Escrow Selling (a_id a)) (User u) (a_sell_denom a))
    = (if existsb (N.eqb u) (bidders_of (bids_of s (a_id a))) then mi_alloc mi u else 0)
      + (if N.eqb (a_auctioneer a) u then unsold_of s a mi else 0).
  Proof.
    rewrite sv_sum, <- (du_bidders _ _ _ _ (sv_dues V)).
    exact (proj1 (settle_xfers_received s a mi wr u sv_nodup)).
  Qed.

  Lemma sv_refunded u :
    sum_xfers xs (from_to (Escrow Paying (a_id a)) (User u) (a_pay_denom a))
    = (if wr && existsb (N.eqb u) (bidders_of (bids_of s (a_id a))) then mi_refund mi u else 0)
      + (if match a_scheds a with [] => N.eqb (a_auctioneer a) u | _ => false end then proceeds_of s a mi wr else 0).
  Proof.
    rewrite sv_sum, <- (du_bidders _ _ _ _ (sv_dues V)).
    exact (proj2 (settle_xfers_received s a mi wr u sv_nodup)).
  Qed.
End Reads.

(* The view for model_trans s o, over s itself: the step runs from s with its logs emptied, and no clause of the view reads
   the logs of the first state.  `received` and `refunded` of the checkers are the sums of sv_received and sv_refunded. *)
Theorem settling_facts s o a a' :
  Inv s -> In (a, a') (settling (model_trans s o)) ->
  exists mi wr, settle_view s (t_post (model_trans s o)) (t_xfers (model_trans s o)) a a' (block_time o) (block_orc o) mi wr.
Proof.
  intros I Hin. rewrite FixedFacts.model_trans_eq in *. cbv zeta in *.
  apply in_settling in Hin. cbn [t_pre t_post t_xfers] in *. destruct Hin as (Ha & Fa' & St & Hst').
  destruct (step_settle_view _ o _ a a' (FixedFacts.Inv_ghost_reset s I) eq_refl Ha St Fa' Hst') as (mi & wr & V).
  exists mi, wr. destruct V as [Fa BW Hsup Hw D L Hbat Hfix HR Est Vq B]. constructor; try assumption.
  apply (dues_slice s _ a mi wr) in D; [exact D|split; reflexivity].
Qed.

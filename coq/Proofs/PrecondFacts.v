(* C18: every message handler accepts exactly under the flat documented precondition of Spec.v. *)
From Coq Require Import ZArith NArith List Bool Arith Lia.
From FR Require Import Dec Types Bank Match Step Model Spec Checkers.
From FR.Proofs Require Import ResFacts HookBase DecFacts PrecondBase VestingFacts Ledger.
From FR.Proofs Require EqbFacts FrameFacts HookFacts TxFacts.
Import ListNotations.
Open Scope Z_scope.
Local Opaque P.

(* What the acceptance proofs assume of the pre-state: no balance and no fee coin is negative, a bid stored on a batch
   auction is in the coin of its type (what MatchConseq.denoms_wf says of a book), and no auction sells the coin it is
   paid in.  Every state of the invariant has it (FixedFacts.Inv_WF). *)
Record WF (s : state) : Prop := {
  wf_bal : forall a d, 0 <= st_bal s a d;
  (* fee coins are not negative (Genesis.coins_ok gives positive, see coins_ok_pos) *)
  wf_cfee : forall c, In c (p_cfee (st_params s)) -> 0 <= snd c;
  wf_bfee : forall c, In c (p_bfee (st_params s)) -> 0 <= snd c;
  wf_batch_bids : forall b a, In b (st_bids s) -> find_auction s (b_auction b) = Some a -> a_type a = Batch ->
      (b_type b = BWorth /\ b_denom b = a_pay_denom a) \/ (b_type b = BMany /\ b_denom b = a_sell_denom a);
  wf_denoms : forall a, In a (st_auctions s) -> a_sell_denom a <> a_pay_denom a
}.

(* what the monotonicity clause of C11_effects needs beyond WF; follows from Inv (FixedFacts.Inv_bids_pos) *)
Definition bids_pos (s : state) : Prop := forall b, In b (st_bids s) -> 0 < b_price b /\ 0 < b_amt b.

(* What a user can pay: the condition pays on the lists of the handlers, against Spec.can_pay. *)
Lemma net_user_coins u t cs d :
  addr_eqb t (User u) = false -> net (coin_xfers (User u) t cs) (User u) d = - coins_amount cs d.
Proof.
  intros Ht. induction cs as [|[d1 a1] r IH]; [reflexivity|].
  change (coin_xfers (User u) t ((d1, a1) :: r)) with (send_xf (User u) t d1 a1 ++ coin_xfers (User u) t r).
  rewrite net_app, IH, net_send_xf, Ht, EqbFacts.addr_eqb_refl, coins_amount_cons. unfold BankFacts.ind. cbn [andb].
  destruct (N.eqb d1 d); lia.
Qed.

(* coins sent by a user to another account go through exactly when the user holds their sum in every denomination *)
Lemma pays_coins u t cs : addr_eqb t (User u) = false -> (forall c, In c cs -> 0 <= snd c) -> forall b,
  (forall d, 0 <= b (User u) d) ->
  (pays b (coin_xfers (User u) t cs) <-> forall d, coins_amount cs d <= b (User u) d).
Proof.
  intros Ht. induction cs as [|[d0 a] r IH]; intros Hcs b Hb.
  - split; [intros _ d; rewrite coins_amount_nil; apply Hb|intros _; exact I].
  - assert (Ha : 0 <= a) by (apply (Hcs (d0, a)); left; reflexivity).
    assert (Hr : forall c, In c r -> 0 <= snd c) by (intros c Hc; apply Hcs; right; exact Hc).
    change (coin_xfers (User u) t ((d0, a) :: r)) with (send_xf (User u) t d0 a ++ coin_xfers (User u) t r).
    set (b1 := apply_xfers b (send_xf (User u) t d0 a)).
    assert (Eb1 : forall d, b1 (User u) d = b (User u) d - (if N.eqb d0 d then a else 0)).
    { intros d. unfold b1. rewrite apply_xfers_net, net_send_xf, Ht, EqbFacts.addr_eqb_refl. unfold BankFacts.ind.
      cbn [andb]. destruct (N.eqb d0 d); lia. }
    pose proof (fun d => coins_amount_nonneg d r Hr) as Hnn.
    rewrite pays_app, pays_send_xf. fold b1. split.
    + intros [H0 H1] d.
      assert (Hb1 : forall d, 0 <= b1 (User u) d).
      { intros d'. rewrite Eb1. specialize (Hb d'). destruct (N.eqb_spec d0 d') as [<-|_]; lia. }
      apply (proj1 (IH Hr b1 Hb1)) with (d := d) in H1. rewrite Eb1 in H1. rewrite coins_amount_cons. lia.
    + intros H.
      assert (Hb1 : forall d, 0 <= b1 (User u) d).
      { intros d'. rewrite Eb1. specialize (H d'). specialize (Hnn d'). rewrite coins_amount_cons in H. lia. }
      split.
      * specialize (H d0). specialize (Hnn d0). rewrite coins_amount_cons, N.eqb_refl in H. lia.
      * apply (proj2 (IH Hr b1 Hb1)). intros d. specialize (H d). rewrite coins_amount_cons in H. rewrite Eb1. lia.
Qed.

(* the fee to the community pool, then one reservation, against the flat condition of Spec.v *)
Lemma pays_fee_then s u cs t d a :
  addr_eqb t (User u) = false -> (forall d, 0 <= st_bal s (User u) d) -> (forall c, In c cs -> 0 <= snd c) -> 0 <= a ->
  (pays (st_bal s) (coin_xfers (User u) Pool cs ++ send_xf (User u) t d a) <-> can_pay s u (cs ++ [(d, a)]) = true).
Proof.
  intros Ht Hb Hcs Ha.
  rewrite pays_app, pays_send_xf, apply_xfers_net, (net_user_coins u Pool cs d eq_refl).
  rewrite (pays_coins u Pool cs eq_refl Hcs _ Hb), (can_pay_snoc s u cs d a Hb Ha), andb_true_iff, Z.leb_le, (can_pay_iff s u cs Hb).
  split; intros [H1 H2]; (split; [exact H1|]); specialize (H1 d); lia.
Qed.

(* Each handler: its guards (the records of TxFacts) against the flat precondition of Spec.v. *)
Lemma cancel_ok_iff s u up id :
  WF s ->
  (is_ok (cancel s u up id) <->
   match find_auction s id with
   | Some a => N.eqb u (a_auctioneer a) && status_eqb (a_status a) StandBy && no_veto s H_BeforeCanceled
   | None => false
   end = true).
Proof.
  intros W. rewrite (is_ok_found _ _ _ _ (TxFacts.cancel_iff s u up id)), found_some.
  destruct (find_auction s id) as [a|]; [|split; [intros []|discriminate]]. split.
  - intros G. rewrite (TxFacts.cn_hook G), (TxFacts.cn_standby G), (TxFacts.cn_owner G), N.eqb_refl. reflexivity.
  - intros H. b2p H. constructor; try congruence. apply pays_send_xf.
    (* whatever the selling escrow holds can be sent from it *)
    pose proof (wf_bal s W (Escrow Selling id) (a_sell_denom a)). lia.
Qed.

(* keeper.ValidateFixedPriceBid and ValidateBatch{Worth,Many}Bid as conjunctions *)
Lemma fixed_valid_iff s a b :
  TxFacts.fixed_valid s a b <->
  atype_eqb (a_type a) FixedPrice
  && (N.eqb (b_denom b) (a_pay_denom a) || N.eqb (b_denom b) (a_sell_denom a))
  && (b_price b =? a_start_price a) && (sell_amount (a_pay_denom a) b <=? a_remaining a)
  && match find_allowed s (a_id a) (b_bidder b) with
     | Some al =>
         sumZ (map (sell_amount (a_pay_denom a)) (filter (fun x => N.eqb (b_bidder x) (b_bidder b)) (bids_of s (a_id a))))
         + sell_amount (a_pay_denom a) b <=? al_max al
     | None => false
     end = true.
Proof.
  unfold TxFacts.fixed_valid. destruct (find_allowed s (a_id a) (b_bidder b)) as [al|].
  - rewrite !andb_true_iff, orb_true_iff, EqbFacts.atype_eqb_eq, !N.eqb_eq, Z.eqb_eq, !Z.leb_le. split.
    + intros (T & D & Pr & R & al' & E & M). injection E as <-. tauto.
    + intros ((((T & D) & Pr) & R) & M). repeat (split; [assumption|]). exists al. auto.
  - split; [intros (_ & _ & _ & _ & al & E & _); discriminate E|]. rewrite !andb_true_iff. intros [_ H]; discriminate H.
Qed.

Lemma batch_valid_iff s a b want :
  TxFacts.batch_valid s a b want <->
  atype_eqb (a_type a) Batch && N.eqb (b_denom b) want
  && match find_allowed s (a_id a) (b_bidder b) with
     | Some al => sell_amount (a_pay_denom a) b <=? al_max al
     | None => false
     end = true.
Proof.
  unfold TxFacts.batch_valid. destruct (find_allowed s (a_id a) (b_bidder b)) as [al|].
  - rewrite !andb_true_iff, EqbFacts.atype_eqb_eq, N.eqb_eq, Z.leb_le. split.
    + intros (T & D & al' & E & M). injection E as <-. tauto.
    + intros ((T & D) & M). repeat (split; [assumption|]). exists al. auto.
  - split; [intros (_ & _ & al & E & _); discriminate E|]. rewrite !andb_true_iff. intros [_ H]; discriminate H.
Qed.

(* a valid bid pays exactly when its bidder can pay the fee and what the bid is worth in the paying coin *)
Lemma bid_pays_iff s a b :
  WF s -> 0 <= b_amt b -> 0 <= b_price b -> TxFacts.bid_valid s a b ->
  (pays (st_bal s) (TxFacts.bid_xf s a b) <->
   can_pay s (b_bidder b) (p_bfee (st_params s) ++ [(a_pay_denom a, pay_amount (a_pay_denom a) b)]) = true).
Proof.
  intros W Ha Hp V. rewrite (TxFacts.bid_xf_pay s a b V).
  apply pays_fee_then; [reflexivity|exact (wf_bal s W _)|exact (wf_bfee s W)|].
  unfold pay_amount. destruct (N.eqb _ _); [exact Ha|apply pay_of_qty_nonneg; assumption].
Qed.

(* the guards of PlaceBid for a bid of a batch type, whose validation wants the coin `want`, against the body of
   Spec.batch_bid_precond *)
Lemma place_batch_ok_iff s a b want :
  WF s -> 0 <= b_amt b -> 0 <= b_price b -> b_auction b = a_id a ->
  (TxFacts.bid_valid s a b <-> TxFacts.batch_valid s a b want) ->
  (TxFacts.place_ok s a b <->
   atype_eqb (a_type a) Batch && status_eqb (a_status a) Started && (a_min_price a <=? b_price b) && N.eqb (b_denom b) want
   && match find_allowed s (a_id a) (b_bidder b) with
      | None => false
      | Some al => sell_amount (a_pay_denom a) b <=? al_max al
      end
   && can_pay s (b_bidder b) (p_bfee (st_params s) ++ [(a_pay_denom a, pay_amount (a_pay_denom a) b)])
   && no_veto s H_BeforeBidPlaced = true).
Proof.
  intros W Ha Hp Hau HV. split.
  - intros G. pose proof (TxFacts.pl_valid G) as V.
    pose proof (proj1 (bid_pays_iff s a b W Ha Hp V) (TxFacts.pl_pays G)) as CP.
    apply HV, batch_valid_iff in V.
    (* on a batch auction the price guard speaks *)
    assert (T : atype_eqb (a_type a) Batch = true) by (rewrite !andb_true_iff in V; tauto).
    pose proof (TxFacts.pl_price G) as M. rewrite T in M. cbn [andb] in M. apply Z.ltb_ge in M.
    pose proof (TxFacts.pl_started G) as St. pose proof (TxFacts.pl_hook G) as Hk.
    rewrite !andb_true_iff in V. rewrite !andb_true_iff, EqbFacts.status_eqb_eq, Z.leb_le. tauto.
  - intros H. rewrite !andb_true_iff, EqbFacts.status_eqb_eq, Z.leb_le in H.
    assert (V : TxFacts.bid_valid s a b) by (apply HV, batch_valid_iff; rewrite !andb_true_iff; tauto).
    constructor.
    + (* pl_started *) tauto.
    + (* pl_price *) apply andb_false_iff. right. apply Z.ltb_ge. tauto.
    + (* pl_entry: the allowance is compared with an entry *)
      rewrite Hau. intros E. rewrite E in H. intuition discriminate.
    + (* pl_valid *) exact V.
    + (* pl_pays *) apply (bid_pays_iff s a b W Ha Hp V). tauto.
    + (* pl_hook *) tauto.
Qed.

Lemma place_bid_ok_iff s u id bt price d amt :
  WF s -> 0 <= amt -> 0 <= price ->
  (is_ok (place_bid s u id bt price d amt) <->
   match bt with
   | BFixed => fixed_bid_precond s u id price d amt
   | _ => batch_bid_precond s u id bt price d amt
   end && no_veto s H_BeforeBidPlaced = true).
Proof.
  intros W Hamt Hprice. rewrite (is_ok_found _ _ _ _ (TxFacts.place_bid_iff s u id bt price d amt)), found_some.
  unfold fixed_bid_precond, batch_bid_precond.
  destruct (find_auction s id) as [a|] eqn:Ea; [|split; [intros []|destruct bt; discriminate]].
  destruct (FrameFacts.find_auction_some _ _ _ Ea) as [_ Hid]. subst id. cbv zeta.
  (* Spec.v computes the amounts on a bid with id 0: they do not read the id, so its bid is new_bid up to conversion *)
  destruct bt.
  - set (b := TxFacts.new_bid s u (a_id a) BFixed price d amt). split.
    + intros G. pose proof (TxFacts.pl_valid G) as V.
      pose proof (proj1 (bid_pays_iff s a b W Hamt Hprice V) (TxFacts.pl_pays G)) as CP.
      change (TxFacts.fixed_valid s a b) in V. apply fixed_valid_iff in V.
      pose proof (TxFacts.pl_started G) as St. pose proof (TxFacts.pl_hook G) as Hk.
      rewrite !andb_true_iff in V. rewrite !andb_true_iff, EqbFacts.status_eqb_eq. tauto.
    + intros H. rewrite !andb_true_iff, EqbFacts.status_eqb_eq in H.
      assert (V : TxFacts.bid_valid s a b).
      { change (TxFacts.fixed_valid s a b). apply fixed_valid_iff. rewrite !andb_true_iff. tauto. }
      constructor.
      * (* pl_started *) tauto.
      * (* pl_price: not a batch auction *)
        assert (T : a_type a = FixedPrice) by (apply EqbFacts.atype_eqb_eq; tauto). rewrite T. reflexivity.
      * (* pl_entry: the allowance is compared with an entry *)
        intros E. cbn [b TxFacts.new_bid b_auction b_bidder] in E. rewrite E in H. intuition discriminate.
      * (* pl_valid *) exact V.
      * (* pl_pays *) apply (bid_pays_iff s a b W Hamt Hprice V). tauto.
      * (* pl_hook *) tauto.
  - exact (place_batch_ok_iff s a (TxFacts.new_bid s u (a_id a) BWorth price d amt) (a_pay_denom a) W Hamt Hprice eq_refl (iff_refl _)).
  - exact (place_batch_ok_iff s a (TxFacts.new_bid s u (a_id a) BMany price d amt) (a_sell_denom a) W Hamt Hprice eq_refl (iff_refl _)).
Qed.

(* the guards of both creations against Spec.create_precond *)
Lemma create_ok_iff s u sd samt nvs maxr end_ k1 k2 :
  WF s -> 0 <= samt ->
  (TxFacts.create_ok s u sd samt nvs maxr end_ k1 k2 <->
   create_precond s u sd samt nvs maxr end_ && no_veto s k1 && no_veto s k2 = true).
Proof.
  intros W Hamt. unfold create_precond.
  rewrite !andb_true_iff, Z.leb_le, Nat.leb_le, N.leb_le.
  rewrite <- (pays_fee_then s u _ (Escrow Selling (st_aseq s)) sd samt eq_refl (wf_bal s W (User u)) (wf_cfee s W) Hamt).
  split; [intros [G1 G2 G3 G4 G5 G6]; tauto|intros H; constructor; tauto].
Qed.

Lemma create_fixed_ok_iff s u up price sd samt pd vs start end_ :
  WF s -> 0 <= samt ->
  (is_ok (create_fixed s u up price sd samt pd vs start end_) <->
   create_precond s u sd samt (length vs) 0 end_
   && no_veto s H_BeforeFixedCreated && no_veto s H_AfterFixedCreated = true).
Proof.
  intros W Hamt.
  rewrite (is_ok_yields _ _ _ (fun x => TxFacts.create_fixed_iff s u up price sd samt pd vs start end_ x)).
  apply create_ok_iff; assumption.
Qed.

Lemma create_batch_ok_iff s u up price minp sd samt pd vs maxr rate start end_ :
  WF s -> 0 <= samt ->
  (is_ok (create_batch s u up price minp sd samt pd vs maxr rate start end_) <->
   create_precond s u sd samt (length vs) maxr end_
   && no_veto s H_BeforeBatchCreated && no_veto s H_AfterBatchCreated = true).
Proof.
  intros W Hamt.
  rewrite (is_ok_yields _ _ _ (fun x => TxFacts.create_batch_iff s u up price minp sd samt pd vs maxr rate start end_ x)).
  apply create_ok_iff; assumption.
Qed.

Lemma add_allowed_ok_iff s id ea up u max :
  (is_ok (if st_switch s then api_add s id [(ea, AGood up u, max)] else fail s E_DISABLED) <->
   st_switch s
   && match find_auction s id, max with
      | Some a, Some m => (0 <? m) && (m <=? a_sell_amt a)
      | _, _ => false
      end && no_veto s H_BeforeAllowedAdded = true).
Proof.
  unfold is_ok. destruct (st_switch s); [|split; [intros [x H]; discriminate H|intros H; discriminate H]].
  cbn [andb]. split.
  - intros [s' H]. apply TxFacts.api_add_iff in H. destruct H as (a & -> & (_ & V & Fo) & _).
    apply Forall_cons_iff, proj1 in Fo. destruct max as [m|]; cbn [TxFacts.entry_ok] in Fo; [|destruct Fo].
    rewrite V. p2b; lia.
  - destruct (find_auction s id) as [a|] eqn:Ea; [|discriminate]. destruct max as [m|]; [|discriminate].
    intros H. b2p H. eexists. apply TxFacts.api_add_iff. exists a. split; [exact Ea|]. split; [|reflexivity].
    split; [discriminate|]. split; [assumption|]. repeat constructor; assumption.
Qed.

Lemma update_params_ok_iff s auth cfee bfee period :
  is_ok (update_params s auth cfee bfee period) <->
  match auth, check_coins cfee None, check_coins bfee None with
  | AuthGov, Some _, Some _ => true
  | _, _, _ => false
  end = true.
Proof.
  unfold is_ok. split.
  - intros [s' H]. apply TxFacts.update_params_iff in H. destruct H as (c & b & (-> & -> & ->) & _). reflexivity.
  - destruct auth as [|x]; [|discriminate]. destruct (check_coins cfee None) as [c|] eqn:Ec; [|discriminate].
    destruct (check_coins bfee None) as [b|] eqn:Eb; [|discriminate]. intros _.
    eexists. apply TxFacts.update_params_iff. exists c, b. auto.
Qed.

(* under the guards on type and denomination, what ModifyBid sends is the increase of the reservation, if any *)
Lemma WF_modify_xf s u id bid_id a b price amt :
  WF s -> find_auction s id = Some a -> find_bid s id bid_id = Some b -> a_type a = Batch ->
  TxFacts.modify_xf u id a b price (b_denom b) amt
  = send_xf (User u) (Escrow Paying id) (a_pay_denom a)
      (Z.max 0 (pay_amount (a_pay_denom a) (set_b_terms b price amt) - pay_amount (a_pay_denom a) b)).
Proof.
  intros W Ea Eb Ty. destruct (FrameFacts.find_bid_some _ _ _ _ Eb) as (Hin & Hba & _). rewrite <- Hba in Ea.
  destruct (FrameFacts.find_auction_some _ _ _ Ea) as [Hina _].
  exact (TxFacts.modify_xf_pay u id a b price amt (wf_denoms s W a Hina) (wf_batch_bids s W b a Hin Ea Ty)).
Qed.

Lemma modify_ok_iff s u id bid_id price d amt :
  WF s ->
  (is_ok (modify_bid s u id bid_id price d amt) <->
   modify_precond s u id bid_id price d amt && no_veto s H_BeforeBidModified = true).
Proof.
  intros W. unfold is_ok, modify_precond.
  assert (X : forall a b, find_auction s id = Some a -> find_bid s id bid_id = Some b -> a_type a = Batch -> b_denom b = d ->
    (pays (st_bal s) (TxFacts.modify_xf u id a b price d amt) <->
     pay_amount (a_pay_denom a) (set_b_terms b price amt) - pay_amount (a_pay_denom a) b <= st_bal s (User u) (a_pay_denom a))).
  { intros a b Ea Eb Ty <-. rewrite (WF_modify_xf s u id bid_id a b price amt W Ea Eb Ty), pays_send_xf.
    pose proof (wf_bal s W (User u) (a_pay_denom a)). lia. }
  split.
  - intros [s' H]. apply TxFacts.modify_bid_iff in H. destruct H as (a & b & Ea & Eb & G & _).
    destruct (TxFacts.md_raised G) as [Hp Ha]. pose proof (TxFacts.md_changed G) as Hne. pose proof (TxFacts.md_price G) as Hmin.
    pose proof (proj1 (X a b Ea Eb (TxFacts.md_batch G) (TxFacts.md_denom G)) (TxFacts.md_pays G)) as Hpay.
    rewrite Ea, Eb, (TxFacts.md_started G), (TxFacts.md_batch G), (TxFacts.md_owner G), (TxFacts.md_denom G), (TxFacts.md_hook G).
    b2p Hne; p2b; reflexivity || lia.
  - destruct (find_auction s id) as [a|] eqn:Ea; [|discriminate]. destruct (find_bid s id bid_id) as [b|] eqn:Eb; [|discriminate].
    intros H. set (raised := (b_price b <? price) || (b_amt b <? amt)) in H. b2p H.
    assert (R : b_price b < price \/ b_amt b < amt).
    { match goal with Hr : raised = true |- _ => apply orb_true_iff in Hr; rewrite !Z.ltb_lt in Hr; exact Hr end. }
    eexists. apply TxFacts.modify_bid_iff. exists a, b. split; [exact Ea|]. split; [exact Eb|]. split; [|reflexivity].
    (* the guards that are conjuncts of modify_precond as they stand, then the four that are not *)
    constructor; try assumption.
    + (* md_denom *) symmetry. assumption.
    + (* md_raised *) split; assumption.
    + (* md_changed *) apply andb_false_iff. rewrite !Z.eqb_neq. lia.
    + (* md_pays *) apply (X a b eq_refl eq_refl); [assumption|symmetry; assumption|assumption].
Qed.

Lemma handle_ok_iff s m c : WF s -> check_basic m = Some c -> (is_ok (handle s c) <-> precond s m = true).
Proof.
  intros W Ec. pose proof (TxFacts.check_basic_wf m c Ec) as Hc. unfold precond. rewrite Ec.
  destruct c; cbn [handle TxFacts.cmsg_wf] in *.
  - destruct Hc as (_ & Hs & _). apply create_fixed_ok_iff; [exact W|lia].
  - destruct Hc as (_ & _ & Hs & _). apply create_batch_ok_iff; [exact W|lia].
  - apply cancel_ok_iff. exact W.
  - destruct Hc as [Hp Ha]. apply place_bid_ok_iff; [exact W|lia|lia].
  - apply modify_ok_iff. exact W.
  - apply add_allowed_ok_iff.
  - apply update_params_ok_iff.
Qed.

Theorem C18_exact_proof s m : WF s -> (fst (deliver_tx s m) = Accepted <-> precond s m = true).
Proof.
  intros W. rewrite accepted_deliver. destruct (check_basic m) as [c|] eqn:Ec.
  - apply handle_ok_iff; assumption.
  - unfold precond. rewrite Ec. split; [intros []|intros H; discriminate H].
Qed.

Lemma accept_cancel_iff s who id :
  WF s -> (fst (deliver_tx s (MCancel who id)) = Accepted <-> precond s (MCancel who id) = true).
Proof. intros W. apply C18_exact_proof. exact W. Qed.
Lemma accept_modify_iff s who a b price coin :
  WF s -> (fst (deliver_tx s (MModifyBid who a b price coin)) = Accepted <->
           precond s (MModifyBid who a b price coin) = true).
Proof. intros W. apply C18_exact_proof. exact W. Qed.
Lemma accept_place_iff s who a bt price coin :
  WF s -> (fst (deliver_tx s (MPlaceBid who a bt price coin)) = Accepted <->
           precond s (MPlaceBid who a bt price coin) = true).
Proof. intros W. apply C18_exact_proof. exact W. Qed.
Lemma accept_create_fixed_iff s who price sell pay vs start end_ :
  WF s -> (fst (deliver_tx s (MCreateFixed who price sell pay vs start end_)) = Accepted <->
           precond s (MCreateFixed who price sell pay vs start end_) = true).
Proof. intros W. apply C18_exact_proof. exact W. Qed.
Lemma accept_create_batch_iff s who price minp sell pay vs maxr rate start end_ :
  WF s -> (fst (deliver_tx s (MCreateBatch who price minp sell pay vs maxr rate start end_)) = Accepted <->
           precond s (MCreateBatch who price minp sell pay vs maxr rate start end_) = true).
Proof. intros W. apply C18_exact_proof. exact W. Qed.
Lemma accept_add_allowed_iff s a ea who max :
  fst (deliver_tx s (MAddAllowed a ea who max)) = Accepted <-> precond s (MAddAllowed a ea who max) = true.
Proof.
  rewrite accepted_deliver. unfold precond, check_basic. destruct who as [up u|].
  - apply add_allowed_ok_iff.
  - split; [intros []|intros H; discriminate H].
Qed.
Lemma accept_update_params_iff s auth cfee bfee period :
  fst (deliver_tx s (MUpdateParams auth cfee bfee period)) = Accepted <->
  precond s (MUpdateParams auth cfee bfee period) = true.
Proof. rewrite accepted_deliver. apply update_params_ok_iff. Qed.
(* the two kinds of MsgPlaceBid, by the wire value of the bid type (1 fixed price, 2 batch worth, 3 batch many) *)
Lemma accept_place_fixed_iff s who a price coin :
  WF s -> (fst (deliver_tx s (MPlaceBid who a 1%N price coin)) = Accepted <->
           precond s (MPlaceBid who a 1%N price coin) = true).
Proof. intros W. apply C18_exact_proof. exact W. Qed.
Lemma accept_place_batch_iff s who a bt price coin :
  WF s -> bt = 2%N \/ bt = 3%N ->
  (fst (deliver_tx s (MPlaceBid who a bt price coin)) = Accepted <->
   precond s (MPlaceBid who a bt price coin) = true).
Proof. intros W _. apply C18_exact_proof. exact W. Qed.

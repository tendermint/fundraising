(* C01, exact form: the excess of an escrow account (balance minus what the records owe) only changes by
   third-party deposits, and drops to zero when the escrow is swept.  Definitions and the generic lemmas. *)
From Coq Require Import ZArith NArith List Bool.
From FR Require Import Types Model.
From FR.Proofs Require Import InvDefs FrameFacts EscrowBase.
Import ListNotations.
Open Scope Z_scope.

Definition excess (s : state) (r : role) (id d : N) : Z := st_bal s (Escrow r id) d - owed s r id d.

(* the operation sweeps escrow (r,id) in denom d: selling when the auction leaves stand-by/started,
   paying when it settles.  The vesting escrow is never swept: a release pays out exactly the instalments that stop
   being owed, so its excess stays as it is, the last release included (EscrowBlock.act_kept).  A bool; the P
   tells it from Checkers.sweeps, the same test on a transition (ExcessAll.sweeps_same). *)
Definition sweepsP (s s' : state) (r : role) (id d : N) : bool :=
  match find_auction s id, find_auction s' id with
  | Some a, Some a' =>
      match r with
      | Selling => N.eqb d (a_sell_denom a) && is_open (a_status a) && negb (is_open (a_status a'))
      | Paying => N.eqb d (a_pay_denom a) && status_eqb (a_status a) Started
                  && (status_eqb (a_status a') VestingS || status_eqb (a_status a') Finished)
      | Vesting => false
      end
  | _, _ => false
  end.

Lemma sweepsP_some s s' r id d a a' :
  find_auction s id = Some a -> find_auction s' id = Some a' ->
  sweepsP s s' r id d =
    match r with
    | Selling => N.eqb d (a_sell_denom a) && is_open (a_status a) && negb (is_open (a_status a'))
    | Paying => N.eqb d (a_pay_denom a) && status_eqb (a_status a) Started
                && (status_eqb (a_status a') VestingS || status_eqb (a_status a') Finished)
    | Vesting => false
    end.
Proof. intros F F'. unfold sweepsP. rewrite F, F'. reflexivity. Qed.

(* what the operation brings into escrow (r,id) in denom d from outside the module: only an accepted plain send does *)
Definition donation (o : op) (out : outcome) (r : role) (id d : N) : Z :=
  match o, out with
  | OSend _ to d' amt, Accepted => if addr_eqb to (Escrow r id) && N.eqb d d' then amt else 0
  | _, _ => 0
  end.

Definition exc_rel (s s' : state) : Prop :=
  forall r id d, excess s' r id d = if sweepsP s s' r id d then 0 else excess s r id d.

Lemma sweepsP_none s s' r id d : find_auction s id = None -> sweepsP s s' r id d = false.
Proof. intros E. unfold sweepsP. rewrite E. reflexivity. Qed.

Lemma sweepsP_same_status s s' r id d a a' :
  find_auction s id = Some a -> find_auction s' id = Some a' -> a_status a' = a_status a ->
  sweepsP s s' r id d = false.
Proof.
  intros F F' E. rewrite (sweepsP_some s s' r id d a a' F F'), E. destruct r; [| |reflexivity].
  - destruct (is_open (a_status a)); cbn [negb andb]; rewrite ?andb_false_r; reflexivity.
  - destruct (a_status a); cbn [status_eqb andb orb]; rewrite ?andb_false_r; reflexivity.
Qed.

Lemma sweepsP_same s s' r id d : find_auction s' id = find_auction s id -> sweepsP s s' r id d = false.
Proof.
  intros E. destruct (find_auction s id) as [a|] eqn:F; [|exact (sweepsP_none s s' r id d F)].
  exact (sweepsP_same_status s s' r id d a a F E eq_refl).
Qed.

Lemma sweepsP_conv_l s1 s2 s' r id d :
  find_auction s2 id = find_auction s1 id -> sweepsP s2 s' r id d = sweepsP s1 s' r id d.
Proof. intros E. unfold sweepsP. rewrite E. reflexivity. Qed.
Lemma sweepsP_conv_r s s1 s2 r id d :
  find_auction s2 id = find_auction s1 id -> sweepsP s s2 r id d = sweepsP s s1 r id d.
Proof. intros E. unfold sweepsP. rewrite E. reflexivity. Qed.

Lemma excess_slice j s s' r d : slice_eq j s s' -> excess s' r j d = excess s r j d.
Proof.
  intros Sl. unfold excess, owed.
  rewrite (se_bal _ _ _ Sl), (se_auction _ _ _ Sl), (se_bids _ _ _ Sl), (se_vqs _ _ _ Sl). reflexivity.
Qed.

Lemma excess_ext s s' :
  st_auctions s' = st_auctions s -> st_bids s' = st_bids s -> st_vqs s' = st_vqs s -> st_bal s' = st_bal s ->
  forall r id d, excess s' r id d = excess s r id d.
Proof.
  intros Ha Hb Hv Hbal r id d. unfold excess. rewrite Hbal, (owed_ext s s' Ha Hb Hv). reflexivity.
Qed.

Lemma exc_rel_ext s s' :
  st_auctions s' = st_auctions s -> st_bids s' = st_bids s -> st_vqs s' = st_vqs s -> st_bal s' = st_bal s ->
  exc_rel s s'.
Proof.
  intros Ha Hb Hv Hbal r id d. rewrite sweepsP_same by (unfold find_auction; now rewrite Ha).
  now apply excess_ext.
Qed.

Lemma exc_rel_refl s : exc_rel s s.
Proof. now apply exc_rel_ext. Qed.

Lemma exc_rel_by_frame tid s s' :
  frame tid s s' ->
  (forall r d, excess s' r tid d = if sweepsP s s' r tid d then 0 else excess s r tid d) ->
  exc_rel s s'.
Proof.
  intros F H r id d. destruct (N.eq_dec id tid) as [->|Hne]; [apply H|].
  pose proof (F id Hne) as Sl. rewrite (sweepsP_same s s' r id d (se_auction _ _ _ Sl)).
  now apply excess_slice.
Qed.

Lemma exc_rel_pre s0 s s' :
  st_auctions s = st_auctions s0 -> st_bids s = st_bids s0 -> st_vqs s = st_vqs s0 -> st_bal s = st_bal s0 ->
  exc_rel s s' -> exc_rel s0 s'.
Proof.
  intros Ha Hb Hv Hbal H r id d. rewrite (H r id d), (excess_ext s0 s Ha Hb Hv Hbal).
  rewrite (sweepsP_conv_l s0 s s' r id d) by (unfold find_auction; now rewrite Ha). reflexivity.
Qed.
Lemma exc_rel_post s s1 s' :
  st_auctions s' = st_auctions s1 -> st_bids s' = st_bids s1 -> st_vqs s' = st_vqs s1 -> st_bal s' = st_bal s1 ->
  exc_rel s s1 -> exc_rel s s'.
Proof.
  intros Ha Hb Hv Hbal H r id d. rewrite (excess_ext s1 s' Ha Hb Hv Hbal).
  rewrite (sweepsP_conv_r s s1 s' r id d) by (unfold find_auction; now rewrite Ha). apply H.
Qed.

Definition exc_step (s : state) (o : op) : Prop :=
  forall r id d,
    excess (snd (step s o)) r id d
    = if sweepsP s (snd (step s o)) r id d then 0 else excess s r id d + donation o (fst (step s o)) r id d.

Lemma exc_step_of_rel s o :
  (forall out, donation o out = fun _ _ _ => 0) -> exc_rel s (snd (step s o)) -> exc_step s o.
Proof. intros Hd H r id d. rewrite Hd, Z.add_0_r. apply H. Qed.

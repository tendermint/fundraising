(* C17, the hook call sites: an accepted operation calls every registered listener exactly once
   per hook it offers, in program order, with the values of the records it then stores (read off the
   states the handlers leave, Proofs/TxFacts.v); bank sends, listener registration and the genesis round trip call no
   hook (the last by Proofs/ImportShape.v).  alloc_args: what the allocation hook is given. *)
From Coq Require Import ZArith NArith List Lia.
From FR Require Import Types Bank Match Step Genesis Model Spec Checkers.
From FR.Proofs Require Import HookBase HookFacts FrameFacts Ledger TxFacts.
From FR.Proofs Require ImportShape.
Import ListNotations.
Open Scope Z_scope.

Lemma expected_trace_app : forall s e1 e2,
  expected_trace s (e1 ++ e2) = expected_trace s e1 ++ expected_trace s e2.
Proof. intros s e1 e2. unfold expected_trace. apply flat_map_app. Qed.

Lemma expected_trace_listeners : forall s s' exp,
  st_listeners s' = st_listeners s -> expected_trace s' exp = expected_trace s exp.
Proof. intros s s' exp H. unfold expected_trace. now rewrite H. Qed.

(* from s to s' exactly the hooks E were offered, each to every listener of s in turn *)
Definition emits (s : state) (E : list (N * list Z)) (s' : state) : Prop :=
  st_trace s' = st_trace s ++ expected_trace s E.

Lemma emits_app : forall s s1 s2 E1 E2,
  emits s E1 s1 -> st_listeners s1 = st_listeners s -> emits s1 E2 s2 -> emits s (E1 ++ E2) s2.
Proof.
  unfold emits. intros s s1 s2 E1 E2 H1 Hl H2.
  rewrite H2, H1, (expected_trace_listeners s s1 E2 Hl), expected_trace_app, app_assoc. reflexivity.
Qed.

Lemma emits_none : forall s s', st_trace s' = st_trace s -> emits s [] s'.
Proof.
  intros s s' H. unfold emits. rewrite H.
  symmetry. apply app_nil_r.
Qed.

Lemma hooked_emits : forall s s1 k args,
  st_listeners s1 = st_listeners s -> st_trace s1 = st_trace s -> emits s [(k, args)] (hooked s1 k args).
Proof.
  unfold emits, hooked, all_calls. intros s s1 k args Hl Ht. sproj.
  rewrite Ht, Hl. fold (all_calls s k args).
  rewrite all_calls_expected. reflexivity.
Qed.

(* what an accepted message leaves behind, per message kind: the stored record and the hook calls
   made with exactly that record's values *)
Definition site_spec (s : state) (c : cmsg) (s' : state) : Prop :=
  match c with
  | CCreateFixed _ _ _ _ _ _ _ _ _ =>
      exists a, st_auctions s' = st_auctions s ++ [a] /\ a_id a = st_aseq s /\ a_type a = FixedPrice /\
        st_trace s' = st_trace s ++ expected_trace s [(H_BeforeFixedCreated, enc_auction_args a);
                                                      (H_AfterFixedCreated, zN (a_id a) :: enc_auction_args a)]
  | CCreateBatch _ _ _ _ _ _ _ _ _ _ _ _ =>
      exists a, st_auctions s' = st_auctions s ++ [a] /\ a_id a = st_aseq s /\ a_type a = Batch /\
        st_trace s' = st_trace s ++ expected_trace s [(H_BeforeBatchCreated, enc_auction_args a);
                                                      (H_AfterBatchCreated, zN (a_id a) :: enc_auction_args a)]
  | CCancel u up id =>
      st_trace s' = st_trace s ++ expected_trace s [(H_BeforeCanceled, zN id :: enc_addr_str (AGood up u))]
  | CPlaceBid u id bt price d amt =>
      exists b, st_bids s' = st_bids s ++ [b] /\
        b_auction b = id /\ b_bidder b = u /\ b_id b = (st_bseq s id + 1)%N /\ b_type b = bt /\
        b_price b = price /\ b_denom b = d /\ b_amt b = amt /\
        st_trace s' = st_trace s ++ expected_trace s [(H_BeforeBidPlaced, enc_bid_args b)]
  | CModifyBid u id bid_id price d amt =>
      exists b, find_bid s id bid_id = Some b /\
        st_bids s' = st_bids (put_bid s (set_b_terms b price amt)) /\
        st_trace s' = st_trace s ++ expected_trace s [(H_BeforeBidModified, enc_bid_args (set_b_terms b price amt))]
  | CAddAllowed a ea up u max =>
      st_trace s' = st_trace s ++ expected_trace s [(H_BeforeAllowedAdded, enc_entries [(ea, AGood up u, max)])]
  | CUpdateParams _ _ _ _ => st_trace s' = st_trace s
  end.

(* the end of both creating handlers, from the state sb in which fees and escrow are paid: the Before hook runs on a store
   without the auction, the After hook on a store with it *)
Definition store_between (s : state) (k1 k2 : N) (a : auction) (s' : state) : Prop :=
  exists sb sb' sa,
    call_hook sb k1 (enc_auction_args a) = Ok sb' /\ st_auctions sb = st_auctions s /\
    sa = with_auctions sb' (st_auctions sb' ++ [a]) /\
    call_hook sa k2 (zN (a_id a) :: enc_auction_args a) = Ok s' /\
    st_auctions sa = st_auctions s ++ [a] /\ st_auctions s' = st_auctions s ++ [a] /\
    st_trace sb = st_trace s.

Lemma store_between_auctions : forall s k1 k2 a s',
  store_between s k1 k2 a s' -> st_auctions s' = st_auctions s ++ [a].
Proof. intros s k1 k2 a s' (sb & sb' & sa & _ & _ & _ & _ & _ & H & _). exact H. Qed.

Lemma create_post_sites : forall s xs k1 k2 a,
  no_veto s k1 = true -> no_veto s k2 = true -> a_id a = st_aseq s ->
  let s' := create_post s xs k1 k2 (enc_auction_args a) a in
  store_between s k1 k2 a s' /\
  emits s [(k1, enc_auction_args a); (k2, zN (a_id a) :: enc_auction_args a)] s'.
Proof.
  intros s xs k1 k2 a V1 V2 Hid s'. subst s'. unfold create_post. rewrite <- Hid.
  set (s2 := banked (with_aseq s (a_id a + 1)%N) xs). split.
  - exists s2, (hooked s2 k1 (enc_auction_args a)),
      (with_auctions (hooked s2 k1 (enc_auction_args a)) (st_auctions s ++ [a])).
    split; [apply yields_hook; split; [exact V1|reflexivity]|]. split; [reflexivity|]. split; [reflexivity|].
    split; [apply yields_hook; split; [exact V2|reflexivity]|]. repeat split.
  - apply (emits_app s (hooked s2 k1 (enc_auction_args a)) _ [_] [_]).
    + apply hooked_emits; reflexivity.
    + reflexivity.
    + apply hooked_emits; reflexivity.
Qed.

Lemma create_fixed_sites : forall s u up price sd samt pd vs start end_ s',
  create_fixed s u up price sd samt pd vs start end_ = Ok s' ->
  exists a, a_id a = st_aseq s /\ a_type a = FixedPrice /\
    store_between s H_BeforeFixedCreated H_AfterFixedCreated a s' /\
    emits s [(H_BeforeFixedCreated, enc_auction_args a); (H_AfterFixedCreated, zN (a_id a) :: enc_auction_args a)] s'.
Proof.
  intros s u up price sd samt pd vs start end_ s' H.
  apply create_fixed_iff in H. destruct H as [G ->].
  exists (fixed_new s u up price sd samt pd vs start end_). split; [reflexivity|]. split; [reflexivity|].
  exact (create_post_sites s _ _ _ (fixed_new s u up price sd samt pd vs start end_) (co_before G) (co_after G) eq_refl).
Qed.

Lemma create_batch_sites : forall s u up price minp sd samt pd vs maxr rate start end_ s',
  create_batch s u up price minp sd samt pd vs maxr rate start end_ = Ok s' ->
  exists a, a_id a = st_aseq s /\ a_type a = Batch /\
    store_between s H_BeforeBatchCreated H_AfterBatchCreated a s' /\
    emits s [(H_BeforeBatchCreated, enc_auction_args a); (H_AfterBatchCreated, zN (a_id a) :: enc_auction_args a)] s'.
Proof.
  intros s u up price minp sd samt pd vs maxr rate start end_ s' H.
  apply create_batch_iff in H. destruct H as [G ->].
  exists (batch_new s u up price minp sd samt pd vs maxr rate start end_). split; [reflexivity|]. split; [reflexivity|].
  exact (create_post_sites s _ _ _ (batch_new s u up price minp sd samt pd vs maxr rate start end_) (co_before G) (co_after G) eq_refl).
Qed.

Lemma cancel_sites : forall s u up id s',
  cancel s u up id = Ok s' -> emits s [(H_BeforeCanceled, zN id :: enc_addr_str (AGood up u))] s'.
Proof.
  intros s u up id s' H. apply cancel_iff in H. destruct H as (a & _ & _ & ->).
  apply (hooked_emits s (banked s (cancel_xf s id a))); reflexivity.
Qed.

Lemma place_bid_sites : forall s u id bt price d amt s',
  place_bid s u id bt price d amt = Ok s' -> site_spec s (CPlaceBid u id bt price d amt) s'.
Proof.
  intros s u id bt price d amt s' H. apply place_bid_iff in H. destruct H as (a & _ & _ & ->).
  cbn [site_spec]. exists (stored_bid a (new_bid s u id bt price d amt)). split; [reflexivity|].
  (* the stored bid differs from the bid placed in its matched flag only: the fields first, then the call *)
  repeat (split; [reflexivity|]). unfold place_post. apply (hooked_emits s); reflexivity.
Qed.

Lemma modify_bid_sites : forall s u id bid_id price d amt s',
  modify_bid s u id bid_id price d amt = Ok s' ->
  exists b, find_bid s id bid_id = Some b /\
    st_bids s' = st_bids (put_bid s (set_b_terms b price amt)) /\
    emits s [(H_BeforeBidModified, enc_bid_args (set_b_terms b price amt))] s'.
Proof.
  intros s u id bid_id price d amt s' H.
  apply modify_bid_iff in H. destruct H as (a & b & _ & Fb & G & ->). pose proof (md_denom G) as Hd.
  exists b. split; [exact Fb|]. split; [reflexivity|].
  (* the bid found has the keys it was looked up by *)
  destruct (find_bid_some _ _ _ _ Fb) as (_ & Ha & Hi). unfold enc_bid_args, modify_post. cbn [set_b_terms b_auction b_id b_bidder b_type b_price b_denom b_amt].
  rewrite Ha, Hi, Hd. apply (hooked_emits s (banked s (modify_xf u id a b price d amt))); reflexivity.
Qed.

Lemma with_allowed_twice : forall s x y, with_allowed (with_allowed s x) y = with_allowed s y.
Proof. reflexivity. Qed.

Lemma add_entries_err : forall l s a c tr, add_entries s a l = Err c tr ->
  tr = st_trace s /\ (c = E_INVALID \/ c = E_REMAINING).
Proof.
  induction l as [|[[ea who] max] rest IH]; intros s a c tr H; cbn [add_entries] in H.
  - discriminate.
  - destruct who as [up u|]; [|injection H as <- <-; split; [reflexivity | left; reflexivity]].
    destruct max as [m|]; [|injection H as <- <-; split; [reflexivity | left; reflexivity]].
    destruct (negb (0 <? m)); [injection H as <- <-; split; [reflexivity | left; reflexivity]|].
    destruct (a_sell_amt a <? m); [injection H as <- <-; split; [reflexivity | right; reflexivity]|].
    apply IH in H as [-> Hc]. rewrite put_allowed_eq. split; [reflexivity | exact Hc].
Qed.

Lemma api_add_sites : forall s id l s',
  api_add s id l = Ok s' -> emits s [(H_BeforeAllowedAdded, enc_entries l)] s'.
Proof.
  intros s id l s' H. apply api_add_iff in H. destruct H as (a & _ & _ & ->).
  destruct (entries_put (a_id a) l (hooked s H_BeforeAllowedAdded (enc_entries l))) as (al & -> & _).
  apply (hooked_emits s s); reflexivity.
Qed.

Lemma api_update_sites : forall s id u max s',
  api_update s id u max = Ok s' ->
  exists m, max = Some m /\ emits s [(H_BeforeAllowedUpdated, [zN id; zN u; m])] s'.
Proof.
  intros s id u max s' H. apply api_update_iff in H. destruct H as (m & G & ->). rewrite (up_max G).
  exists m. split; [reflexivity|].
  rewrite put_allowed_eq. apply (hooked_emits s s); reflexivity.
Qed.

Definition alloc_args (a : auction) (mi : minfo) (with_refund_map : bool) : list Z :=
  zN (a_id a) :: enc_map (mi_bidders mi) (mi_alloc mi)
  ++ (if with_refund_map then enc_map (mi_bidders mi) (mi_refund mi) else [0]).

Theorem handle_sites : forall s c s', handle s c = Ok s' -> site_spec s c s'.
Proof.
  intros s c s' H. destruct c; cbn [handle] in H; cbn [site_spec].
  - destruct (create_fixed_sites _ _ _ _ _ _ _ _ _ _ _ H) as (a & Hid & Hty & B & Ht).
    exists a. split; [exact (store_between_auctions _ _ _ _ _ B)|]. repeat split; assumption.
  - destruct (create_batch_sites _ _ _ _ _ _ _ _ _ _ _ _ _ _ H) as (a & Hid & Hty & B & Ht).
    exists a. split; [exact (store_between_auctions _ _ _ _ _ B)|]. repeat split; assumption.
  - eapply cancel_sites; exact H.
  - exact (place_bid_sites _ _ _ _ _ _ _ _ H).
  - eapply modify_bid_sites; exact H.
  - destruct (st_switch s); [|discriminate]. eapply api_add_sites; exact H.
  - apply update_params_iff in H as (cf & bf & _ & ->). reflexivity.
Qed.

Theorem accepted_tx_sites : forall s m,
  fst (step s (OTx m)) = Accepted ->
  exists c, check_basic m = Some c /\ handle s c = Ok (snd (step s (OTx m)))
            /\ site_spec s c (snd (step s (OTx m))).
Proof.
  intros s m H. destruct (accepted_handle s m H) as (c & Hc & Hh). exists c. auto using handle_sites.
Qed.

Theorem accepted_api_add_sites : forall s id l,
  fst (step s (OApiAdd id l)) = Accepted ->
  emits s [(H_BeforeAllowedAdded, enc_entries l)] (snd (step s (OApiAdd id l))).
Proof.
  intros s id l H. cbn [step] in *.
  apply commit_accepted in H. eapply api_add_sites; exact H.
Qed.

Lemma with_trace_same' : forall s, with_trace s (st_trace s) = s.
Proof. exact with_trace_eta. Qed.

Theorem send_no_hooks : forall s from to d amt, st_trace (snd (step s (OSend from to d amt))) = st_trace s.
Proof.
  intros s from to d amt. cbn [step]. destruct (0 <? amt); [|reflexivity].
  pose proof (bankop_trace _ _ (send_bankop s (User from) to d amt)) as Q.
  destruct (send s (User from) to d amt) as [s'|c tr]; exact Q.
Qed.

Theorem set_listeners_no_hooks : forall s ls, st_trace (snd (step s (OSetListeners ls))) = st_trace s.
Proof. reflexivity. Qed.

Theorem genesis_no_hooks : forall s, st_trace (snd (step s OGenesis)) = st_trace s.
Proof. intros s. apply (ImportShape.genesis_keeps s). Qed.

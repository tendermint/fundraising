(* C17, the hook trace of a whole successful block: one BeforeAllocated hook (every listener once,
   in order) per closing auction, for a subsequence of the Started-and-due auctions, in store order;
   nothing else. *)
From Coq Require Import ZArith NArith List.
From FR Require Import Types Match Step Model.
From FR.Proofs Require Import HookBase HookSites HookBlock BlockFacts BlockWalk.
Import ListNotations.
Open Scope Z_scope.

Inductive subseq {A : Type} : list A -> list A -> Prop :=
| sub_nil : forall l, subseq [] l
| sub_skip : forall x l1 l2, subseq l1 l2 -> subseq l1 (x :: l2)
| sub_take : forall x l1 l2, subseq l1 l2 -> subseq (x :: l1) (x :: l2).

Definition alloc_hook (h : auction * minfo * bool) : N * list Z :=
  (H_BeforeAllocated, alloc_args (fst (fst h)) (snd (fst h)) (snd h)).

Lemma process_all_trace : forall l t orc s s',
  process_all t orc s l = Ok s' ->
  exists hs sub,
    emits s (map alloc_hook hs) s' /\
    subseq sub l /\ map (fun h => a_id (fst (fst h))) hs = map a_id sub /\
    Forall (fun a => a_status a = Started /\ last_end a <= t) sub.
Proof.
  induction l as [|a rest IH]; intros t orc s s' H; cbn [process_all] in H.
  - injection H as <-. exists [], [].
    split; [apply emits_none; reflexivity|]. split; [constructor|]. split; [reflexivity | constructor].
  - apply bind_ok_inv in H as [s1 [H1 H]]. apply process_iff in H1. destruct H1 as (x & C & _ & ->).
    destruct (act_emits t s a x) as [E1 Hl]. apply IH in H as [hs [sub [Ht [Hsub [Hids Hall]]]]].
    (* the hooks of the action are alloc_hook (a, mi, wr) for a settlement and none otherwise *)
    destruct x as [| |mi|mi wr|].
    4:{ exists ((a, mi, wr) :: hs), (a :: sub).
        split; [exact (emits_app s _ s' [alloc_hook (a, mi, wr)] (map alloc_hook hs) E1 Hl Ht)|].
        split; [apply sub_take; exact Hsub|]. split; [cbn [map fst]; congruence|].
        destruct (proj1 (chosen_settle_iff _ _ _ _ _ _) C) as (St & L & _). constructor; [split; assumption|exact Hall]. }
    all: exists hs, sub; split; [exact (emits_app s _ s' [] _ E1 Hl Ht)|]; split; [apply sub_skip; exact Hsub|]; split; assumption.
Qed.


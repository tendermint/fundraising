(* Arithmetic of the model, P = 10^18 used only through 0 < P and P even:
   - Dec.v: truncation, ceiling, qty_of_worth (floor), pay_of_qty (ceiling), share, and what a bid asks for and
     reserves (Match.sell_amount, pay_amount);
   - the vesting split of Step.v (keeper.ApplyVestingSchedules) against Spec.spec_split, for the schedules that
     Genesis.scheds_ok / Step.check_scheds accept; vq_of (the instalment split makes of a schedule) and vq_fields_ok
     (what every instalment of an auction's split has in common) are defined here for it, before VestingFacts;
   - LegacyDec.Quo (dec_quo) and the extended-round rule of CloseBatchAuction. *)
From Coq Require Import ZArith NArith List Bool Lia.
From FR Require Import Dec Types Match Step Genesis Spec.
From FR.Proofs Require Import ListFacts.
Import ListNotations.
Open Scope Z_scope.

Lemma P_pos : 0 < P.
Proof. reflexivity. Qed.

Lemma P_even : P = 2 * (P / 2).
Proof. vm_compute. reflexivity. Qed.

Local Opaque P.

Lemma P_ge_2 : 2 <= P.
Proof. pose proof P_pos. pose proof P_even. lia. Qed.

Lemma truncate_int_eq : forall d, 0 <= d -> truncate_int d = d / P.
Proof.
  intros d Hd. unfold truncate_int. pose proof P_pos as HP.
  apply Z.quot_div_nonneg; lia.
Qed.

Lemma quot_quot_nonneg : forall a b c, 0 <= a -> 0 < b -> 0 < c -> Z.quot (Z.quot a b) c = a / (b * c).
Proof.
  intros a b c Ha Hb Hc. rewrite (Z.quot_div_nonneg a b Ha Hb), Z.quot_div_nonneg by (try apply Z.div_pos; assumption).
  apply Z.div_div; lia.
Qed.

Lemma div_bounds : forall a b, 0 < b -> (a / b) * b <= a < (a / b + 1) * b.
Proof.
  intros a b Hb.
  pose proof (Z.div_mod a b ltac:(lia)) as HDM.
  pose proof (Z.mod_pos_bound a b Hb) as HM. lia.
Qed.

Lemma div_unique_bounds : forall a b q, 0 < b -> q * b <= a < (q + 1) * b -> a / b = q.
Proof.
  intros a b q Hb Hq. symmetry.
  apply (Z.div_unique a b q (a - q * b)); [left; lia | ring].
Qed.

Lemma ceil_int_eq : forall d, 0 <= d -> ceil_int d = (d + P - 1) / P.
Proof.
  intros d Hd. pose proof P_pos as HP. unfold ceil_int.
  rewrite (Z.rem_mod_nonneg d P Hd HP), (Z.quot_div_nonneg d P Hd HP).
  pose proof (Z.div_mod d P ltac:(lia)) as HDM.
  pose proof (Z.mod_pos_bound d P HP) as HM.
  symmetry. apply div_unique_bounds; [exact HP|].
  destruct (Z.eqb_spec (d mod P) 0) as [E0|E0]; [lia|].
  destruct (Z.ltb_spec (d mod P) 0) as [Eneg|Epos]; lia.
Qed.

Lemma ceil_int_bounds : forall d, 0 <= d -> d <= ceil_int d * P < d + P.
Proof.
  intros d Hd. pose proof P_pos as HP. rewrite (ceil_int_eq d Hd).
  pose proof (div_bounds (d + P - 1) P HP) as HB. lia.
Qed.

Lemma ceil_int_mono : forall d d', 0 <= d <= d' -> ceil_int d <= ceil_int d'.
Proof.
  intros d d' Hd. pose proof P_pos as HP.
  rewrite (ceil_int_eq d), (ceil_int_eq d') by lia.
  apply Z.div_le_mono; lia.
Qed.

Lemma ceil_int_exact : forall n, 0 <= n -> ceil_int (n * P) = n.
Proof.
  intros n Hn. pose proof P_pos as HP.
  rewrite ceil_int_eq by lia. apply div_unique_bounds; [exact HP | lia].
Qed.

Lemma qty_of_worth_eq : forall w p, 0 <= w -> 0 < p -> qty_of_worth w p = w * P / p.
Proof.
  intros w p Hw Hp. pose proof P_pos as HP.
  unfold qty_of_worth, truncate_int, dec_of_int.
  assert (H0 : 0 <= w * P * (P * P)) by lia.
  rewrite (Z.quot_div_nonneg _ p H0 Hp), quot_quot_nonneg by (try apply Z.div_pos; assumption).
  rewrite Z.div_div by lia.
  apply Z.div_mul_cancel_r; lia.
Qed.

Lemma qty_of_worth_bounds : forall w p, 0 <= w -> 0 < p ->
  qty_of_worth w p * p <= w * P < (qty_of_worth w p + 1) * p.
Proof.
  intros w p Hw Hp. rewrite (qty_of_worth_eq w p Hw Hp). apply div_bounds; exact Hp.
Qed.

Lemma qty_of_worth_nonneg : forall w p, 0 <= w -> 0 < p -> 0 <= qty_of_worth w p.
Proof.
  intros w p Hw Hp. rewrite (qty_of_worth_eq w p Hw Hp). pose proof P_pos as HP.
  apply Z.div_pos; lia.
Qed.

Lemma qty_of_worth_antitone : forall w p p', 0 <= w -> 0 < p -> p <= p' ->
  qty_of_worth w p' <= qty_of_worth w p.
Proof.
  intros w p p' Hw Hp Hpp. pose proof P_pos as HP.
  rewrite (qty_of_worth_eq w p Hw Hp), (qty_of_worth_eq w p' Hw ltac:(lia)).
  apply Z.div_le_compat_l; lia.
Qed.

Lemma qty_of_worth_mono_w : forall w w' p, 0 <= w <= w' -> 0 < p ->
  qty_of_worth w p <= qty_of_worth w' p.
Proof.
  intros w w' p Hw Hp. pose proof P_pos as HP.
  rewrite (qty_of_worth_eq w p), (qty_of_worth_eq w' p) by lia.
  apply Z.div_le_mono; nia.
Qed.

Lemma qty_of_worth_0 : forall p, 0 < p -> qty_of_worth 0 p = 0.
Proof.
  intros p Hp. rewrite qty_of_worth_eq by lia. apply Z.div_0_l. lia.
Qed.

Lemma qty_of_worth_price0 : forall a, qty_of_worth a 0 = 0.
Proof.
  intros a. unfold qty_of_worth, truncate_int. generalize (dec_of_int a * (P * P)). intros x.
  destruct x; reflexivity.
Qed.

Lemma pay_of_qty_eq : forall m p, 0 <= m -> 0 <= p -> pay_of_qty m p = (m * p + P - 1) / P.
Proof.
  intros m p Hm Hp. unfold pay_of_qty. apply ceil_int_eq. lia.
Qed.

Lemma pay_of_qty_bounds : forall m p, 0 <= m -> 0 <= p ->
  m * p <= pay_of_qty m p * P < m * p + P.
Proof.
  intros m p Hm Hp. unfold pay_of_qty. apply ceil_int_bounds. lia.
Qed.

Lemma pay_of_qty_least : forall m p r, 0 <= m -> 0 <= p -> m * p <= r * P -> pay_of_qty m p <= r.
Proof.
  intros m p r Hm Hp Hr. pose proof P_pos as HP.
  pose proof (pay_of_qty_bounds m p Hm Hp) as HB. nia.
Qed.

Lemma pay_of_qty_mono : forall m m' p p', 0 <= m <= m' -> 0 <= p <= p' ->
  pay_of_qty m p <= pay_of_qty m' p'.
Proof.
  intros m m' p p' Hm Hp. unfold pay_of_qty. apply ceil_int_mono. nia.
Qed.

Lemma pay_of_qty_nonneg : forall m p, 0 <= m -> 0 <= p -> 0 <= pay_of_qty m p.
Proof.
  intros m p Hm Hp. pose proof P_pos as HP.
  pose proof (pay_of_qty_bounds m p Hm Hp) as HB. lia.
Qed.

Lemma pay_of_qty_0 : forall p, pay_of_qty 0 p = 0.
Proof. intros p. unfold pay_of_qty. rewrite Z.mul_0_l. exact (ceil_int_exact 0 (Z.le_refl 0)). Qed.

Lemma pay_of_qty_0_r : forall m, pay_of_qty m 0 = 0.
Proof. intros m. unfold pay_of_qty. rewrite Z.mul_0_r. exact (ceil_int_exact 0 (Z.le_refl 0)). Qed.

Lemma pay_of_qty_tight : forall m p, 0 <= m -> 0 <= p ->
  m * p <= pay_of_qty m p * P <= m * p + (if 0 <? m then P - 1 else 0).
Proof.
  intros m p Hm Hp. destruct (Z.ltb_spec 0 m) as [L|L].
  - pose proof (pay_of_qty_bounds m p Hm Hp). lia.
  - assert (m = 0) by lia. subst m. rewrite pay_of_qty_0. lia.
Qed.

Lemma pay_of_qty_pos : forall m p, 0 < m -> 0 < p -> 0 < pay_of_qty m p.
Proof.
  intros m p Hm Hp. pose proof P_pos as HP.
  pose proof (pay_of_qty_bounds m p ltac:(lia) ltac:(lia)) as HB. lia.
Qed.

Lemma pay_of_qty_add : forall m1 m2 p, 0 <= m1 -> 0 <= m2 -> 0 <= p ->
  pay_of_qty (m1 + m2) p <= pay_of_qty m1 p + pay_of_qty m2 p <= pay_of_qty (m1 + m2) p + 1.
Proof.
  intros m1 m2 p H1 H2 Hp. pose proof P_pos as HP.
  pose proof (pay_of_qty_bounds m1 p H1 Hp) as B1.
  pose proof (pay_of_qty_bounds m2 p H2 Hp) as B2.
  pose proof (pay_of_qty_bounds (m1 + m2) p ltac:(lia) Hp) as B3.
  nia.
Qed.

Lemma worth_never_overpays : forall w p, 0 <= w -> 0 < p -> pay_of_qty (qty_of_worth w p) p <= w.
Proof.
  intros w p Hw Hp.
  pose proof (qty_of_worth_bounds w p Hw Hp) as HB.
  apply pay_of_qty_least; [apply qty_of_worth_nonneg; assumption | lia | lia].
Qed.

Lemma worth_never_overpays_le : forall w p m, 0 <= w -> 0 < p -> 0 <= m <= qty_of_worth w p ->
  pay_of_qty m p <= w.
Proof.
  intros w p m Hw Hp Hm.
  apply Z.le_trans with (pay_of_qty (qty_of_worth w p) p).
  - apply pay_of_qty_mono; lia.
  - apply worth_never_overpays; assumption.
Qed.

Lemma sell_amount_paying : forall pd b, b_denom b = pd ->
  sell_amount pd b = qty_of_worth (b_amt b) (b_price b).
Proof. intros pd b H. unfold sell_amount. rewrite H, N.eqb_refl. reflexivity. Qed.

Lemma pay_amount_paying : forall pd b, b_denom b = pd -> pay_amount pd b = b_amt b.
Proof. intros pd b H. unfold pay_amount. rewrite H, N.eqb_refl. reflexivity. Qed.

Lemma sell_amount_selling : forall pd b, b_denom b <> pd -> sell_amount pd b = b_amt b.
Proof.
  intros pd b H. unfold sell_amount. destruct (N.eqb_spec (b_denom b) pd) as [E|E]; [contradiction|reflexivity].
Qed.

Lemma pay_amount_selling : forall pd b, b_denom b <> pd ->
  pay_amount pd b = pay_of_qty (b_amt b) (b_price b).
Proof.
  intros pd b H. unfold pay_amount. destruct (N.eqb_spec (b_denom b) pd) as [E|E]; [contradiction|reflexivity].
Qed.

Lemma fixed_bid_paying : forall pd b, b_denom b = pd -> 0 < b_amt b -> 0 < b_price b ->
  let q := sell_amount pd b in
  q * b_price b <= b_amt b * P < (q + 1) * b_price b
  /\ 0 <= q
  /\ pay_amount pd b = b_amt b.
Proof.
  intros pd b Hd Ha Hp q. subst q. rewrite (sell_amount_paying pd b Hd), (pay_amount_paying pd b Hd).
  split; [apply qty_of_worth_bounds; lia|].
  split; [apply qty_of_worth_nonneg; lia | reflexivity].
Qed.

Lemma fixed_bid_selling : forall pd b, b_denom b <> pd -> 0 < b_amt b -> 0 < b_price b ->
  let r := pay_amount pd b in
  b_amt b * b_price b <= r * P < b_amt b * b_price b + P
  /\ 0 < r
  /\ sell_amount pd b = b_amt b.
Proof.
  intros pd b Hd Ha Hp r. subst r. rewrite (sell_amount_selling pd b Hd), (pay_amount_selling pd b Hd).
  split; [apply pay_of_qty_bounds; lia|].
  split; [apply pay_of_qty_pos; assumption | reflexivity].
Qed.

Lemma sell_amount_nonneg : forall pd b, 0 < b_amt b -> 0 < b_price b -> 0 <= sell_amount pd b.
Proof.
  intros pd b Ha Hp. destruct (N.eq_dec (b_denom b) pd) as [E|E].
  - rewrite (sell_amount_paying pd b E). apply qty_of_worth_nonneg; lia.
  - rewrite (sell_amount_selling pd b E). lia.
Qed.

Lemma pay_amount_pos : forall pd b, 0 < b_amt b -> 0 < b_price b -> 0 < pay_amount pd b.
Proof.
  intros pd b Ha Hp. destruct (N.eq_dec (b_denom b) pd) as [E|E].
  - rewrite (pay_amount_paying pd b E). lia.
  - rewrite (pay_amount_selling pd b E). apply pay_of_qty_pos; assumption.
Qed.

Lemma pay_amount_mono : forall pd b p amt,
  0 <= b_price b <= p -> 0 <= b_amt b <= amt -> pay_amount pd b <= pay_amount pd (set_b_terms b p amt).
Proof.
  intros pd b p amt Hp Ha. unfold pay_amount. cbn [set_b_terms b_denom b_amt b_price].
  destruct (N.eqb (b_denom b) pd); [lia|apply pay_of_qty_mono; assumption].
Qed.

Lemma share_eq : forall t w, 0 <= t -> 0 <= w -> share t w = t * w / P.
Proof.
  intros t w Ht Hw. pose proof P_pos as HP. unfold share, truncate_int, dec_of_int.
  rewrite quot_quot_nonneg by lia.
  replace (t * P * w) with (t * w * P) by ring.
  apply Z.div_mul_cancel_r; lia.
Qed.

Lemma share_nonneg : forall t w, 0 <= t -> 0 <= w -> 0 <= share t w.
Proof.
  intros t w Ht Hw. rewrite (share_eq t w Ht Hw). pose proof P_pos as HP.
  apply Z.div_pos; lia.
Qed.

Lemma share_bounds : forall t w, 0 <= t -> 0 <= w -> share t w * P <= t * w < (share t w + 1) * P.
Proof.
  intros t w Ht Hw. rewrite (share_eq t w Ht Hw). apply div_bounds. exact P_pos.
Qed.

Lemma share_le : forall t w, 0 <= t -> 0 <= w <= P -> share t w <= t.
Proof.
  intros t w Ht Hw. pose proof P_pos as HP.
  pose proof (share_bounds t w Ht ltac:(lia)) as HB. nia.
Qed.

Lemma share_full : forall t, 0 <= t -> share t P = t.
Proof.
  intros t Ht. rewrite share_eq by (pose proof P_pos; lia).
  apply Z.div_mul. pose proof P_pos. lia.
Qed.

Definition vq_of (a : auction) (v : sched) (amt : Z) : vq :=
  {| v_auction := a_id a; v_time := s_time v; v_auctioneer := a_auctioneer a;
     v_denom := a_pay_denom a; v_amt := amt; v_released := false |}.

Lemma split_nil : forall a total rem, split a total rem [] = [].
Proof. reflexivity. Qed.
Lemma split_single : forall a total rem v, split a total rem [v] = [vq_of a v rem].
Proof. reflexivity. Qed.
Lemma split_cons2 : forall a total rem v v' rest,
  split a total rem (v :: v' :: rest)
  = vq_of a v (share total (s_weight v)) :: split a total (rem - share total (s_weight v)) (v' :: rest).
Proof. reflexivity. Qed.

Lemma spec_split_single : forall total w sofar, spec_split total [w] sofar = [total - sofar].
Proof. reflexivity. Qed.
Lemma spec_split_cons2 : forall total w w' r sofar,
  spec_split total (w :: w' :: r) sofar
  = total * w / P :: spec_split total (w' :: r) (sofar + total * w / P).
Proof. reflexivity. Qed.

Lemma split_snoc : forall a total vs v rem,
  split a total rem (vs ++ [v])
  = map (fun u => vq_of a u (share total (s_weight u))) vs
    ++ [vq_of a v (rem - sumZ (map (fun u => share total (s_weight u)) vs))].
Proof.
  intros a total vs v. induction vs as [|u vs IH]; intros rem.
  - cbn [app map]. rewrite split_single, sumZ_nil, Z.sub_0_r. reflexivity.
  - cbn [app map]. rewrite sumZ_cons, Z.sub_add_distr, <- IH.
    destruct vs; reflexivity.
Qed.

Lemma split_length : forall a total vs rem, length (split a total rem vs) = length vs.
Proof.
  intros a total vs rem. induction vs as [|v vs _] using rev_ind; [reflexivity|].
  rewrite split_snoc, !app_length, map_length. reflexivity.
Qed.

Lemma split_times : forall a total vs rem, map v_time (split a total rem vs) = map s_time vs.
Proof.
  intros a total vs rem. induction vs as [|v vs _] using rev_ind; [reflexivity|].
  rewrite split_snoc, !map_app, map_map. reflexivity.
Qed.

Definition vq_fields_ok (a : auction) (x : vq) : Prop :=
  v_released x = false /\ v_auction x = a_id a /\ v_auctioneer x = a_auctioneer a
  /\ v_denom x = a_pay_denom a.

Lemma split_fields : forall a total vs rem, Forall (vq_fields_ok a) (split a total rem vs).
Proof.
  intros a total vs rem. induction vs as [|v vs _] using rev_ind; [constructor|].
  rewrite split_snoc. apply Forall_app. split.
  - apply Forall_map, Forall_forall. intros u _. repeat split.
  - constructor; [repeat split | constructor].
Qed.

Lemma split_sum : forall a total vs rem, vs <> [] ->
  sumZ (map v_amt (split a total rem vs)) = rem.
Proof.
  intros a total vs rem Hne. destruct (exists_last Hne) as (vs' & v & ->).
  rewrite split_snoc, map_app, sumZ_app, map_map. cbn [map vq_of v_amt].
  rewrite sumZ_cons, sumZ_nil. ring.
Qed.

Lemma split_last : forall a total vs rem d, vs <> [] ->
  last (map v_amt (split a total rem vs)) d
  = rem - sumZ (removelast (map v_amt (split a total rem vs))).
Proof.
  intros a total vs rem d Hne. destruct (exists_last Hne) as (vs' & v & ->).
  rewrite split_snoc, map_app, map_map. cbn [map vq_of v_amt].
  rewrite last_last, removelast_last. reflexivity.
Qed.

Lemma split_amounts : forall a total vs rem sofar,
  0 <= total -> Forall (fun v => 0 <= s_weight v) vs -> rem = total - sofar ->
  map v_amt (split a total rem vs) = spec_split total (map s_weight vs) sofar.
Proof.
  intros a total vs. induction vs as [|v rest IH]; intros rem sofar Ht Hw Hrem.
  - reflexivity.
  - destruct rest as [|v' rest'].
    + rewrite split_single. cbn [map vq_of v_amt]. rewrite spec_split_single. congruence.
    + rewrite split_cons2. cbn [map]. cbn [map] in IH.
      rewrite spec_split_cons2.
      inversion Hw as [|v0 l0 Hwv Hwrest]; subst v0 l0.
      cbn [vq_of v_amt]. rewrite (share_eq total (s_weight v) Ht Hwv).
      f_equal. apply IH; [exact Ht | exact Hwrest | lia].
Qed.

Lemma split_nonfinal : forall a total vs rem i dv d,
  0 <= total -> Forall (fun v => 0 <= s_weight v) vs -> (S i < length vs)%nat ->
  v_amt (nth i (split a total rem vs) dv) = total * s_weight (nth i vs d) / P.
Proof.
  intros a total vs. induction vs as [|v rest IH]; intros rem i dv d Ht Hw Hi.
  - cbn [length] in Hi. lia.
  - inversion Hw as [|v0 l0 Hwv Hwrest]; subst v0 l0.
    destruct rest as [|v' rest'].
    + cbn [length] in Hi. lia.
    + rewrite split_cons2. destruct i as [|i'].
      * cbn [nth vq_of v_amt]. apply share_eq; assumption.
      * cbn [nth]. apply IH; [exact Ht | exact Hwrest |]. cbn [length] in Hi |- *. lia.
Qed.

Lemma shares_le : forall total vs, 0 <= total -> Forall (fun v => 0 <= s_weight v) vs ->
  sumZ (map (fun u => share total (s_weight u)) vs) * P <= total * sumZ (map s_weight vs).
Proof.
  intros total vs Ht Hw. induction Hw as [|v vs Hv _ IH]; cbn [map]; rewrite ?sumZ_cons, ?sumZ_nil; [lia|].
  pose proof (share_bounds total (s_weight v) Ht Hv). lia.
Qed.

Lemma split_nonneg_gen : forall a total vs rem,
  0 <= total -> Forall (fun v => 0 <= s_weight v) vs ->
  total * sumZ (map s_weight vs) <= rem * P ->
  Forall (fun x => 0 <= v_amt x) (split a total rem vs).
Proof.
  intros a total vs rem Ht Hw Hle. induction vs as [|v vs _] using rev_ind; [constructor|].
  apply Forall_app in Hw. destruct Hw as [Hw Hv]. inversion Hv as [|v0 l0 Hwv _]; subst v0 l0.
  pose proof (shares_le total vs Ht Hw) as HS.
  rewrite map_app, sumZ_app in Hle. cbn [map] in Hle. rewrite sumZ_cons, sumZ_nil in Hle.
  rewrite split_snoc. apply Forall_app. split.
  - apply Forall_map. apply Forall_impl with (2 := Hw). intros u Hu. apply share_nonneg; assumption.
  - constructor; [|constructor]. cbn [vq_of v_amt].
    apply Z.le_0_sub, Z.mul_le_mono_pos_r with (p := P); [exact P_pos|].
    pose proof (Z.mul_nonneg_nonneg total (s_weight v) Ht Hwv). lia.
Qed.

Lemma split_last_ge : forall a total d dv vs rem,
  0 <= total -> Forall (fun v => 0 <= s_weight v) vs -> vs <> [] ->
  total * sumZ (map s_weight vs) <= rem * P ->
  total * s_weight (last vs d) <= last (map v_amt (split a total rem vs)) dv * P.
Proof.
  intros a total d dv vs rem Ht Hw Hne Hle. destruct (exists_last Hne) as (vs' & v & ->).
  apply Forall_app in Hw. destruct Hw as [Hw _]. pose proof (shares_le total vs' Ht Hw) as HS.
  rewrite map_app, sumZ_app in Hle. cbn [map] in Hle. rewrite sumZ_cons, sumZ_nil in Hle.
  rewrite split_snoc, map_app. cbn [map]. rewrite !last_last.
  cbn [vq_of v_amt]. lia.
Qed.

Lemma scheds_ok_cons : forall v rest e prev acc, scheds_ok (v :: rest) e prev acc = true ->
  0 < s_weight v /\ e < s_time v /\ prev < s_time v /\ scheds_ok rest e (s_time v) (acc + s_weight v) = true.
Proof.
  intros v rest e prev acc H. cbn [scheds_ok] in H.
  rewrite !andb_true_iff, !Z.ltb_lt in H. destruct H as [[[[Hpos Hend] Hprev] _] Hrest].
  repeat split; assumption.
Qed.

Lemma scheds_ok_weights_gen : forall vs e prev acc, scheds_ok vs e prev acc = true ->
  Forall (fun v => 0 < s_weight v) vs /\ acc + sumZ (map s_weight vs) = P.
Proof.
  induction vs as [|v rest IH]; intros e prev acc H.
  - cbn [scheds_ok] in H. apply Z.eqb_eq in H. split; [constructor|].
    cbn [map]. rewrite sumZ_nil. lia.
  - destruct (scheds_ok_cons _ _ _ _ _ H) as (Hpos & _ & _ & Hrest).
    destruct (IH _ _ _ Hrest) as [HF HS].
    split; [constructor; assumption|].
    cbn [map]. rewrite sumZ_cons. lia.
Qed.

Lemma scheds_ok_weights : forall vs e prev, scheds_ok vs e prev 0 = true ->
  Forall (fun v => 0 < s_weight v) vs /\ sumZ (map s_weight vs) = P.
Proof.
  intros vs e prev H. destruct (scheds_ok_weights_gen vs e prev 0 H) as [HF HS].
  split; [exact HF | lia].
Qed.

Lemma scheds_ok_times : forall vs e prev acc, scheds_ok vs e prev acc = true ->
  Forall (fun v => e < s_time v /\ prev < s_time v) vs.
Proof.
  induction vs as [|v rest IH]; intros e prev acc H.
  - constructor.
  - destruct (scheds_ok_cons _ _ _ _ _ H) as (_ & Hend & Hprev & Hrest).
    constructor; [lia|].
    pose proof (IH _ _ _ Hrest) as HF.
    apply Forall_impl with (2 := HF). intros x [Hx1 Hx2]. lia.
Qed.

Lemma scheds_ok_nonempty : forall vs e prev, scheds_ok vs e prev 0 = true -> vs <> [].
Proof.
  intros vs e prev H E. subst vs. cbn [scheds_ok] in H. apply Z.eqb_eq in H.
  pose proof P_pos. lia.
Qed.

(* what ValidateBasic accepts is valid in the sense of Genesis.scheds_ok *)
Lemma check_scheds_ok : forall ms e prev acc vs, check_scheds ms e prev acc = Some vs ->
  scheds_ok vs e prev acc = true.
Proof.
  induction ms as [|m rest IH]; intros e prev acc vs H.
  - cbn [check_scheds] in H. destruct (acc =? P) eqn:E; [|discriminate].
    inversion H; subst vs. cbn [scheds_ok]. exact E.
  - cbn [check_scheds] in H.
    destruct (ms_weight m) as [w|] eqn:Ew; [|discriminate].
    destruct ((0 <? w) && (e <? ms_time m) && (prev <? ms_time m) && (w <=? P)) eqn:Ec; [|discriminate].
    destruct (check_scheds rest e (ms_time m) (acc + w)) as [l|] eqn:Er; [|discriminate].
    inversion H; subst vs. cbn [scheds_ok s_time s_weight].
    rewrite Ec. cbn [andb]. apply IH. exact Er.
Qed.

Lemma Forall_pos_nonneg : forall vs, Forall (fun v => 0 < s_weight v) vs ->
  Forall (fun v => 0 <= s_weight v) vs.
Proof. intros vs H. apply Forall_impl with (2 := H). intros x Hx. lia. Qed.

Lemma split_nonneg : forall a total vs, 0 <= total -> Forall (fun v => 0 < s_weight v) vs ->
  sumZ (map s_weight vs) = P ->
  Forall (fun x => 0 <= v_amt x) (split a total total vs).
Proof.
  intros a total vs Ht Hw HS. apply split_nonneg_gen; [exact Ht | apply Forall_pos_nonneg; exact Hw |].
  rewrite HS. lia.
Qed.

Lemma split_of_valid : forall a total vs e prev,
  scheds_ok vs e prev 0 = true -> 0 <= total ->
  sumZ (map v_amt (split a total total vs)) = total
  /\ map v_amt (split a total total vs) = spec_split total (map s_weight vs) 0
  /\ Forall (fun x => 0 <= v_amt x) (split a total total vs)
  /\ map v_time (split a total total vs) = map s_time vs.
Proof.
  intros a total vs e prev Hok Ht.
  destruct (scheds_ok_weights vs e prev Hok) as [HF HS].
  pose proof (scheds_ok_nonempty vs e prev Hok) as Hne.
  split; [apply split_sum; exact Hne|].
  split; [apply split_amounts; [exact Ht | apply Forall_pos_nonneg; exact HF | lia]|].
  split; [apply split_nonneg; assumption|].
  apply split_times.
Qed.

(* banker's rounding of q + r/P *)
Definition round_half_even (q r : Z) : Z :=
  if r =? 0 then q
  else match 2 * r ?= P with Lt => q | Gt => q + 1 | Eq => if Z.even q then q else q + 1 end.

Lemma chop_round_eq : forall x, 0 <= x -> chop_round x = round_half_even (x / P) (x mod P).
Proof.
  intros x Hx. pose proof P_pos as HP. pose proof P_even as HE.
  unfold chop_round, round_half_even. cbv zeta.
  rewrite (Z.rem_mod_nonneg x P Hx HP), (Z.quot_div_nonneg x P Hx HP).
  destruct (x mod P =? 0); [reflexivity|].
  destruct (Z.compare_spec (2 * (x mod P)) P), (Z.ltb_spec (x mod P) (P / 2)), (Z.ltb_spec (P / 2) (x mod P));
    try lia; reflexivity.
Qed.

Lemma chop_round_half : forall x, 0 <= x -> 2 * x - P <= 2 * (chop_round x * P) <= 2 * x + P.
Proof.
  intros x Hx. pose proof P_pos as HP. rewrite (chop_round_eq x Hx). unfold round_half_even.
  pose proof (Z.div_mod x P ltac:(lia)) as HDM. pose proof (Z.mod_pos_bound x P HP) as HM.
  destruct (Z.eqb_spec (x mod P) 0) as [E0|E0]; [lia|].
  destruct (Z.compare_spec (2 * (x mod P)) P); [destruct (Z.even (x / P))| |]; lia.
Qed.

Lemma chop_round_floor : forall x, 0 <= x -> x / P <= chop_round x <= x / P + 1.
Proof.
  intros x Hx. rewrite (chop_round_eq x Hx). unfold round_half_even.
  destruct (x mod P =? 0); [lia|].
  destruct (2 * (x mod P) ?= P); [destruct (Z.even (x / P))| |]; lia.
Qed.

Lemma chop_round_exact : forall n, 0 <= n -> chop_round (n * P) = n.
Proof.
  intros n Hn. pose proof P_pos as HP. rewrite chop_round_eq by lia.
  rewrite Z.mod_mul, Z.div_mul by lia. reflexivity.
Qed.

(* Quo of two integer-valued decimals: the 36-digit intermediate is floor(cur*P*P/last) *)
Lemma dec_quo_ints : forall cur last, 0 <= cur -> 0 < last ->
  dec_quo (dec_of_int cur) (dec_of_int last) = chop_round (cur * P * P / last).
Proof.
  intros cur last Hc Hl. pose proof P_pos as HP. unfold dec_quo, dec_of_int.
  rewrite Z.quot_div_nonneg by lia.
  replace (cur * P * (P * P)) with (cur * P * P * P) by ring.
  rewrite Z.div_mul_cancel_r by lia. reflexivity.
Qed.

(* Quo by long division: the integer part of n/y, then its next 18 digits, rounded half to even.
   This form costs two short divisions where dec_quo as written costs one long one and, in chop_round, Z.quot and Z.rem
   apart; the rows of the extension rule in C04_table.v are evaluated through it. *)
Definition quo_digits (n y : Z) : Z :=
  let (q, r) := Z.quotrem n y in round_half_even q (Z.quot (r * P) y).

Lemma chop_round_digits : forall q r, 0 <= q -> 0 <= r < P -> chop_round (q * P + r) = round_half_even q r.
Proof.
  intros q r Hq Hr. rewrite chop_round_eq by nia.
  rewrite Z.add_comm, Z.mod_add, Z.div_add, Z.mod_small, Z.div_small by lia. reflexivity.
Qed.

Lemma chop_round_long_div : forall n y, 0 <= n -> 0 < y -> chop_round (n * P / y) = quo_digits n y.
Proof.
  intros n y Hn Hy. pose proof P_pos as HP. unfold quo_digits.
  pose proof (Z.div_mod n y ltac:(lia)) as HDM. pose proof (Z.mod_pos_bound n y Hy) as HM.
  assert (EQ : Z.quotrem n y = (n / y, n mod y)).
  { rewrite <- Z.quot_div_nonneg, <- Z.rem_mod_nonneg by assumption.
    unfold Z.quot, Z.rem. destruct (Z.quotrem n y); reflexivity. }
  rewrite EQ.
  rewrite Z.quot_div_nonneg by lia.
  replace (n * P) with (n mod y * P + n / y * P * y) by lia. rewrite Z.div_add, Z.add_comm by lia.
  apply chop_round_digits; [apply Z.div_pos; assumption|].
  split; [apply Z.div_pos; lia | apply Z.div_lt_upper_bound; nia].
Qed.

(* how twice the first 18 digits d of a fraction r/y compare with P, read off r and y *)
Lemma digits_half r y (d := r * P / y) :
  0 <= r < y ->
  0 <= d < P /\ (2 * r < y -> 2 * d < P) /\ (y <= 2 * r -> P <= 2 * d)
  /\ ((P / 2 + 1) * y <= r * P -> P < 2 * d) /\ (r * P < (P / 2 + 1) * y -> 2 * d <= P).
Proof.
  intros Hr. pose proof P_pos as HP. pose proof P_even as HE. subst d. set (h := P / 2) in *.
  split; [split; [apply Z.div_pos; nia|apply Z.div_lt_upper_bound; nia]|].
  split; [intros L; assert (r * P / y < h) by (apply Z.div_lt_upper_bound; nia); lia|].
  split; [intros L; assert (h <= r * P / y) by (apply Z.div_le_lower_bound; nia); lia|].
  split; [intros L; assert (h + 1 <= r * P / y) by (apply Z.div_le_lower_bound; nia); lia|].
  intros L. assert (r * P / y < h + 1) by (apply Z.div_lt_upper_bound; nia). lia.
Qed.

(* Quo without dividing, for a result that is given: res is n/y as dec_quo rounds it.  With e = n - res * y, either res is
   the integer part (0 <= e) and the fraction e/y rounds down, or res is one more (e < 0) and the fraction (e + y)/y rounds
   up.  A fraction below 1/2 rounds down, one from 1/2 + 1/P on rounds up, and the band between counts as the tie (the
   intermediate is cut to 18 further digits before the banker's rounding), which goes to the even neighbour.  On operands of
   128 bits long division costs the checker that re-reads the compiled file more than twice as much. *)
Definition quo_rounds_to (n y res : Z) : bool :=
  let e := n - res * y in
  if 0 <=? e then (2 * e <? y) || (Z.even res && (e * P <? (P / 2 + 1) * y))
  else (0 <=? e + y) && (((P / 2 + 1) * y <=? (e + y) * P) || (Z.even res && (y <=? 2 * (e + y)))).

Lemma quo_rounds_to_sound n y res : 0 <= n -> 0 < y -> quo_rounds_to n y res = true -> chop_round (n * P / y) = res.
Proof.
  intros Hn Hy H. pose proof P_pos as HP. pose proof P_ge_2 as H2. pose proof P_even as HE.
  unfold quo_rounds_to in H. cbv zeta in H. set (e := n - res * y) in *.
  destruct (Z.leb_spec 0 e) as [He|He].
  - (* n = res * y + e *)
    rewrite orb_true_iff, andb_true_iff, !Z.ltb_lt in H.
    assert (Hey : e < y) by (destruct H as [H|[_ H]]; nia). assert (0 <= res) by (unfold e in Hey; nia).
    destruct (digits_half e y (conj He Hey)) as (Hd & Lo & _ & _ & Tie).
    replace (n * P) with (e * P + res * P * y) by (unfold e; ring).
    rewrite Z.div_add, Z.add_comm, chop_round_digits by lia.
    unfold round_half_even. destruct (e * P / y =? 0); [reflexivity|].
    destruct (Z.compare_spec (2 * (e * P / y)) P) as [C|C|C]; [|reflexivity|]; destruct H as [H|[Ev H]];
      rewrite ?Ev; try reflexivity; specialize (Lo H) || specialize (Tie H); lia.
  - (* n = (res - 1) * y + r *)
    rewrite !andb_true_iff, orb_true_iff, andb_true_iff, !Z.leb_le in H. destruct H as [Hr H].
    assert (1 <= res) by (unfold e in He; nia). assert (Hry : e + y < y) by lia. set (r := e + y) in *.
    destruct (digits_half r y (conj Hr Hry)) as (Hd & _ & Mid & Hi & _).
    replace (n * P) with (r * P + (res - 1) * P * y) by (unfold r, e; ring).
    rewrite Z.div_add, Z.add_comm, chop_round_digits by lia.
    unfold round_half_even.
    destruct (Z.eqb_spec (r * P / y) 0) as [Z0|_]; [destruct H as [H|[_ H]]; specialize (Hi H) || specialize (Mid H); lia|].
    destruct (Z.compare_spec (2 * (r * P / y)) P) as [C|C|C]; destruct H as [H|[Ev H]];
      try (specialize (Hi H) || specialize (Mid H); lia).
    (* the tie: res is even, so its lower neighbour is not *)
    rewrite <- (Z.succ_pred res), Z.even_succ, <- Z.negb_even, negb_true_iff, <- Z.sub_1_r in Ev. rewrite Ev. lia.
Qed.

Lemma dec_quo_rounds_to : forall x y res, 0 <= x -> 0 < y -> quo_rounds_to (x * P) y res = true -> dec_quo x y = res.
Proof.
  intros x y res Hx Hy H. pose proof P_pos. unfold dec_quo. rewrite Z.quot_div_nonneg, Z.mul_assoc by lia.
  apply quo_rounds_to_sound; [lia|exact Hy|exact H].
Qed.

Lemma dec_quo_ints_long_div : forall cur last, 0 <= cur -> 0 < last ->
  dec_quo (dec_of_int cur) (dec_of_int last) = quo_digits (cur * P) last.
Proof.
  intros cur last Hc Hl. pose proof P_pos. rewrite dec_quo_ints by assumption. apply chop_round_long_div; lia.
Qed.

Lemma dec_quo_nonneg : forall cur last, 0 <= cur -> 0 < last ->
  0 <= dec_quo (dec_of_int cur) (dec_of_int last).
Proof.
  intros cur last Hc Hl. pose proof P_pos as HP. rewrite (dec_quo_ints cur last Hc Hl).
  assert (HX : 0 <= cur * P * P / last) by (apply Z.div_pos; lia).
  pose proof (chop_round_floor _ HX) as HF.
  assert (0 <= cur * P * P / last / P) by (apply Z.div_pos; lia). lia.
Qed.

(* q is within (1/2 + 1/P) units of the 18th decimal of the exact cur/last: the 1/P comes from truncating the
   36-digit intermediate before the banker's rounding *)
Lemma dec_quo_half : forall cur last, 0 <= cur -> 0 < last ->
  let q := dec_quo (dec_of_int cur) (dec_of_int last) in
  2 * (q * last) <= 2 * (cur * P) + last
  /\ (2 * (cur * P) - last) * P - 2 * last < 2 * (q * last) * P.
Proof.
  intros cur last Hc Hl q. pose proof P_pos as HP. subst q.
  rewrite (dec_quo_ints cur last Hc Hl).
  assert (HX : 0 <= cur * P * P / last) by (apply Z.div_pos; lia).
  pose proof (chop_round_half _ HX) as HR.
  pose proof (div_bounds (cur * P * P) last Hl) as HB.
  set (X := cur * P * P / last) in *. set (q := chop_round X) in *.
  assert (HRl : (2 * X - P) * last <= 2 * (q * P) * last <= (2 * X + P) * last)
    by (split; apply Z.mul_le_mono_nonneg_r; lia).
  split; [apply Z.mul_le_mono_pos_r with (p := P)|]; lia.
Qed.

Lemma dec_quo_close : forall cur last, 0 <= cur -> 0 < last ->
  let q := dec_quo (dec_of_int cur) (dec_of_int last) in
  cur * P - last <= q * last <= cur * P + last.
Proof.
  intros cur last Hc Hl q. pose proof P_pos as HP. pose proof P_ge_2 as HP2.
  destruct (dec_quo_half cur last Hc Hl) as [Hup Hlo]. fold q in Hup, Hlo.
  split; [|lia].
  destruct (Z_le_gt_dec (cur * P - last) (q * last)) as [Hok|Hbad]; [exact Hok|].
  exfalso.
  assert (H1 : 2 * (q * last) * P <= (2 * (cur * P) - 2 * last - 2) * P) by (apply Z.mul_le_mono_nonneg_r; lia).
  pose proof (Z.mul_le_mono_nonneg_l 2 P last ltac:(lia) HP2). lia.
Qed.

Lemma dec_quo_exact : forall cur last, 0 <= cur -> 0 < last -> (cur * P) mod last = 0 ->
  dec_quo (dec_of_int cur) (dec_of_int last) = cur * P / last
  /\ (cur * P / last) * last = cur * P.
Proof.
  intros cur last Hc Hl Hm. pose proof P_pos as HP.
  rewrite (dec_quo_ints cur last Hc Hl).
  pose proof (Z.div_mod (cur * P) last ltac:(lia)) as HDM. rewrite Hm in HDM.
  set (k := cur * P / last) in *.
  assert (Hk : 0 <= k) by (apply Z.div_pos; lia).
  split; [|lia].
  replace (cur * P * P) with (k * P * last) by (rewrite HDM; ring).
  rewrite Z.div_mul by lia. apply chop_round_exact. exact Hk.
Qed.

(* the rule with both sides scaled by `last`, where the bounds on the quotient apply *)
Lemma extend_rule_scaled : forall cur last rate, 0 < last ->
  extend_rule cur last rate = (rate * last <=? P * last - dec_quo (dec_of_int cur) (dec_of_int last) * last).
Proof.
  intros cur last rate Hl. unfold extend_rule. rewrite <- Z.mul_sub_distr_r.
  apply Bool.eq_true_iff_eq. rewrite !Z.leb_le. apply Z.mul_le_mono_pos_r. exact Hl.
Qed.

Lemma extend_rule_sound_half : forall cur last rate, 0 <= cur -> 0 < last ->
  2 * (rate * last) <= 2 * ((last - cur) * P) - last -> extend_rule cur last rate = true.
Proof.
  intros cur last rate Hc Hl H. rewrite (extend_rule_scaled cur last rate Hl). apply Z.leb_le.
  destruct (dec_quo_half cur last Hc Hl) as [Hup Hlo]. lia.
Qed.

Lemma extend_rule_exact : forall cur last rate, 0 <= cur -> 0 < last ->
  (cur * P) mod last = 0 ->
  extend_rule cur last rate = (rate * last <=? (last - cur) * P).
Proof.
  intros cur last rate Hc Hl Hm. rewrite (extend_rule_scaled cur last rate Hl).
  destruct (dec_quo_exact cur last Hc Hl Hm) as [Hq Hk]. rewrite Hq, Hk.
  f_equal. ring.
Qed.

Lemma extend_rule_no_drop : forall cur last rate, 0 < last -> last <= cur -> 0 < rate ->
  extend_rule cur last rate = false.
Proof.
  intros cur last rate Hl Hcl Hr. pose proof P_pos as HP. unfold extend_rule. apply Z.leb_gt.
  rewrite (dec_quo_ints cur last ltac:(lia) Hl).
  assert (HX : P * P <= cur * P * P / last).
  { apply Z.div_le_lower_bound; [exact Hl | nia]. }
  assert (HX0 : 0 <= cur * P * P / last) by lia.
  pose proof (chop_round_floor _ HX0) as HF.
  assert (HQ : P <= cur * P * P / last / P).
  { apply Z.div_le_lower_bound; [exact HP | lia]. }
  lia.
Qed.

Lemma extend_rule_rate_mono : forall cur last rate rate', rate' <= rate ->
  extend_rule cur last rate = true -> extend_rule cur last rate' = true.
Proof.
  intros cur last rate rate' Hr H. unfold extend_rule in *.
  apply Z.leb_le in H. apply Z.leb_le. lia.
Qed.

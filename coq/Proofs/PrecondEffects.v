(* C12 (cancellation) and C11 (bid modification), for Properties/C12.v and C11.v.  An accepted message gives the guards
   of its handler and the state it leaves (accepted_cancel, accepted_modify: the inversions of TxFacts read on deliver_tx);
   the effects are read off that state in TxFacts (cancel_post_find, cancel_post_bal, modify_post_find).  For the acceptance
   conditions spelled out: a delivery is accepted or rejected (deliver_outcome), what ValidateBasic demands of a
   MsgModifyBid (check_basic_modify), and Spec.modify_precond as propositions (modify_precond_iff). *)
From Coq Require Import ZArith NArith List Bool Lia.
From FR Require Import Dec Types Bank Match Step Model Spec Checkers.
From FR.Proofs Require Import HookBase TxFacts DecFacts PrecondBase PrecondFacts VestingFacts Ledger.
From FR.Proofs Require FrameFacts HookFacts EqbFacts.
Import ListNotations.
Open Scope Z_scope.
Local Opaque P.

Lemma deliver_outcome s m : fst (deliver_tx s m) = Accepted \/ exists c, fst (deliver_tx s m) = Rejected c.
Proof.
  unfold deliver_tx. destruct (check_basic m) as [cm|].
  - destruct (handle s cm) as [s1|c t]; cbn [commit fst]; [left; reflexivity|right; exists c; reflexivity].
  - right. exists E_BASIC. reflexivity.
Qed.

(* an accepted MsgCancelAuction: who signed it, the auction, the guards of CancelAuction, the state *)
Lemma accepted_cancel s who id :
  fst (deliver_tx s (MCancel who id)) = Accepted ->
  exists up u a, who = AGood up u /\ find_auction s id = Some a /\ cancel_ok s u id a /\
    snd (deliver_tx s (MCancel who id)) = cancel_post s u up id a.
Proof. intros Hacc. exact (tx_cancel_inv (step_shape_acc s (MCancel who id) Hacc)). Qed.

Lemma check_basic_modify who id bid_id price coin c :
  check_basic (MModifyBid who id bid_id price coin) = Some c <->
  exists up u p d amt,
    who = AGood up u /\ price = Some p /\ 0 < p /\ mc_denom coin = Some d /\ mc_amt coin = Some amt /\
    0 < amt /\ c = CModifyBid u id bid_id p d amt.
Proof.
  unfold check_basic, check_pos, check_coin. split.
  - intros H. destruct who as [up u|]; [|discriminate H].
    destruct price as [p|]; [|discriminate H].
    destruct (0 <? p) eqn:Ep; [|discriminate H].
    destruct (mc_denom coin) as [d|]; [|discriminate H].
    destruct (mc_amt coin) as [amt|]; [|discriminate H].
    destruct (0 <? amt) eqn:Ea; [|discriminate H].
    apply Z.ltb_lt in Ep. apply Z.ltb_lt in Ea. inversion H.
    exists up, u, p, d, amt. repeat split; assumption.
  - intros (up & u & p & d & amt & -> & -> & Hp & -> & -> & Ha & ->).
    apply Z.ltb_lt in Hp. apply Z.ltb_lt in Ha. rewrite Hp, Ha. reflexivity.
Qed.

Lemma modify_precond_iff s u id bid_id p d amt :
  modify_precond s u id bid_id p d amt = true <->
  exists a b,
    find_auction s id = Some a /\ find_bid s id bid_id = Some b /\
    a_type a = Batch /\ a_status a = Started /\ b_bidder b = u /\
    a_min_price a <= p /\ d = b_denom b /\ b_price b <= p /\ b_amt b <= amt /\
    (b_price b < p \/ b_amt b < amt) /\
    pay_amount (a_pay_denom a) (set_b_terms b p amt) - pay_amount (a_pay_denom a) b
      <= st_bal s (User u) (a_pay_denom a).
Proof.
  unfold modify_precond. split.
  - destruct (find_auction s id) as [a|]; [|intros H; discriminate H].
    destruct (find_bid s id bid_id) as [b|]; [|intros H; discriminate H].
    intros H. b2p H; exists a, b; repeat split; try assumption; lia.
  - intros (a & b & -> & -> & Hty & Hst & Hu & Hmin & Hden & Hpl & Hal & Hstrict & Hfunds).
    p2b; assumption.
Qed.

(* FrameFacts.find_put_bid on states *)
Lemma find_bid_put s b i j :
  find_bid (put_bid s b) i j
  = if N.eqb i (b_auction b) && N.eqb j (b_id b)
    then match find_bid s i j with Some _ => Some b | None => None end
    else find_bid s i j.
Proof. apply FrameFacts.find_put_bid. Qed.

(* an accepted MsgModifyBid in the form ValidateBasic lets through: the auction, the bid, the guards of ModifyBid, the state *)
Lemma accepted_modify s up u id bid_id p d amt :
  let m := MModifyBid (AGood up u) id bid_id (Some p) {| mc_denom := Some d; mc_amt := Some amt |} in
  fst (deliver_tx s m) = Accepted ->
  exists a b, find_auction s id = Some a /\ find_bid s id bid_id = Some b /\ modify_ok s u id a b p d amt /\
    snd (deliver_tx s m) = modify_post s u id bid_id a b p d amt.
Proof.
  intros m Hacc. destruct (tx_modify_inv (step_shape_acc s m Hacc)) as (up' & u' & p' & d' & amt' & a & b & _ & CB & H).
  cbn [check_basic check_pos check_coin mc_denom mc_amt] in CB.
  destruct (0 <? p); [|discriminate CB]. destruct (0 <? amt); [|discriminate CB]. injection CB as <- <- <- <-.
  exists a, b. exact H.
Qed.

Lemma modify_reservation_grows s up u id bid_id p d amt a b :
  bids_pos s ->
  fst (deliver_tx s (MModifyBid (AGood up u) id bid_id (Some p) {| mc_denom := Some d; mc_amt := Some amt |})) = Accepted ->
  find_auction s id = Some a -> find_bid s id bid_id = Some b ->
  0 <= pay_amount (a_pay_denom a) (set_b_terms b p amt) - pay_amount (a_pay_denom a) b.
Proof.
  intros Hpos Hacc Ea Eb.
  destruct (accepted_modify s up u id bid_id p d amt Hacc) as (a' & b' & Ea' & Eb' & G & _).
  rewrite Ea in Ea'. injection Ea' as <-. rewrite Eb in Eb'. injection Eb' as <-. destruct (md_raised G) as [Hpl Hal].
  destruct (FrameFacts.find_bid_some _ _ _ _ Eb) as (Hin & _). destruct (Hpos b Hin) as [Hbp Hbam].
  pose proof (pay_amount_mono (a_pay_denom a) b p amt) as Hm. lia.
Qed.


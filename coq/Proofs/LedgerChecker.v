(* C02: the executable monitor Checkers.c02_ok holds of every transition of the model from a state
   satisfying the invariant.  deltas_are_transfers and c02_charges hold unconditionally (resp. under Inv);
   zero_sum sums over the finite account universe Checkers.accounts, so it needs that universe to contain
   the endpoints of the transfers of the step: hypothesis `tracked s o` (this is how the harness chooses its
   account universe; a transfer from `User 7` to the pool is NOT zero-sum over users 0..5). *)
From Coq Require Import ZArith List Bool.
From FR Require Import Types Checkers.
From FR.Proofs Require Import InvDefs ListFacts EqbFacts Ledger LedgerCharges.
From FR.Proofs Require InvStaticBase FixedFacts.
Import ListNotations.
Open Scope Z_scope.

Theorem deltas_are_transfers_model s o : deltas_are_transfers (model_trans s o) = true.
Proof.
  unfold deltas_are_transfers. apply forallb_forall. intros a _.
  apply forallb_forall. intros d _.
  apply Z.eqb_eq. apply FixedFacts.model_delta.
Qed.

Theorem c02_charges_model s o : Inv s -> c02_charges (model_trans s o) = true.
Proof.
  intros I. unfold c02_charges. apply forallb_forall.
  intros u _. apply forallb_forall. intros d _.
  cbv zeta. rewrite advertised_charge_eq, FixedFacts.model_xfers, FixedFacts.model_trans_eq.
  cbv zeta. cbn [t_pre t_op t_class].
  rewrite class_of_KOk, (step_charges (FixedFacts.ghost_reset s) o (FixedFacts.Inv_ghost_reset s I) u d).
  change (advertised (FixedFacts.ghost_reset s) o u d) with (advertised s o u d).
  destruct (accepted _); apply Z.eqb_refl.
Qed.

Definition tracked (s : state) (o : op) : Prop :=
  endpoints_in (accounts (t_post (model_trans s o))) (t_xfers (model_trans s o)).

Lemma in_escrows x l :
  In x (flat_map (fun a => map (fun r => Escrow r a) roles) l) <-> exists r a, x = Escrow r a /\ In a l.
Proof.
  rewrite in_flat_map. split.
  - intros (a & Ha & Hx). apply in_map_iff in Hx.
    destruct Hx as (r & <- & _). eauto.
  - intros (r & a & -> & Ha). exists a. split; [exact Ha|].
    apply (in_map (fun r0 => Escrow r0 a)). destruct r; cbn; auto.
Qed.

Lemma NoDup_escrows l : NoDup l -> NoDup (flat_map (fun a => map (fun r => Escrow r a) roles) l).
Proof.
  induction l as [|a r IH]; intros H; [constructor|]. inversion H as [|? ? Hn H']; subst. cbn [flat_map].
  apply NoDup_app_intro.
  - cbn. repeat constructor; cbn; intros C; repeat (destruct C as [C|C]; [discriminate C|]); exact C.
  - apply IH, H'.
  - intros x Hx Hy. apply in_escrows in Hy. destruct Hy as (q & b & -> & Hb).
    cbn in Hx. destruct Hx as [E|[E|[E|[]]]]; injection E as _ <-; contradiction.
Qed.

Lemma accounts_nodup s : NoDup (accounts s).
Proof.
  unfold accounts. apply NoDup_app_intro; [| |].
  - apply FinFun.Injective_map_NoDup; [intros x y E; injection E; auto|apply InvStaticBase.ids_upto_nodup].
  - change ([Pool] ++ ?l) with (Pool :: l). constructor.
    + intros H. apply in_escrows in H.
      destruct H as (r & a & E & _). discriminate E.
    + apply NoDup_escrows, InvStaticBase.ids_upto_nodup.
  - intros x Hx Hy. apply in_map_iff in Hx. destruct Hx as (u & <- & _).
    destruct Hy as [E|Hy]; [discriminate E|]. apply in_escrows in Hy.
    destruct Hy as (r & a & E & _). discriminate E.
Qed.

Theorem zero_sum_model s o : tracked s o -> zero_sum (model_trans s o) = true.
Proof.
  intros T. unfold zero_sum. apply forallb_forall.
  intros d _. apply Z.eqb_eq.
  rewrite (map_ext _ (fun a => net (t_xfers (model_trans s o)) a d)) by (intros a; apply FixedFacts.model_delta).
  apply net_zero_sum; [apply accounts_nodup|exact T].
Qed.

Theorem c02_ok_model s o : Inv s -> tracked s o -> c02_ok (model_trans s o) = true.
Proof.
  intros I T. unfold c02_ok. rewrite (zero_sum_model s o T), (deltas_are_transfers_model s o), (c02_charges_model s o I).
  reflexivity.
Qed.

(* an executable test that implies `tracked`: the harness can run it *)
Definition trackedb (s : state) (o : op) : bool :=
  let t := model_trans s o in
  forallb (fun x => existsb (addr_eqb (x_from x)) (accounts (t_post t)) && existsb (addr_eqb (x_to x)) (accounts (t_post t)))
          (t_xfers t).
Lemma trackedb_spec s o : trackedb s o = true -> tracked s o.
Proof.
  unfold trackedb, tracked, endpoints_in. cbv zeta.
  intros H x Hx. rewrite forallb_forall in H.
  specialize (H x Hx). apply andb_true_iff in H. destruct H as [H1 H2].
  apply existsb_exists in H1, H2. destruct H1 as (y1 & Hy1 & E1), H2 as (y2 & Hy2 & E2).
  apply addr_eqb_eq in E1, E2. subst. split; assumption.
Qed.

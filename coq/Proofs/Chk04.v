(* Checker link for C04: the executable monitor Checkers.c04_ok holds of every transition of the model from a state
   satisfying the invariant.  Batch clause: ChkSettle.settling_facts + the refund facts of MatchConseq + the flags of
   PublishFacts; fixed price clause: the state of Chk05.fixed_bid_post + the conversions of DecFacts.
   c04_delivered is the fixed price branch of the settlement clause of c05_ok, read as a statement about what was
   paid for, and c04_modify a conjunct of c11_ok; with them, c04_all. *)
From Coq Require Import ZArith NArith List Bool Lia.
From FR Require Import Dec Types Match Step Checkers.
From FR.Proofs Require Import InvDefs EscrowBase Ledger LedgerCharges LedgerSettle ChkSettle Chk05.
From FR.Proofs Require FixedFacts EscrowBlock MatchConseq PublishFacts DecFacts Chk11.
Import ListNotations.
Open Scope Z_scope.

Lemma P_pos' : 0 < P. Proof. reflexivity. Qed.
Local Opaque P.

Lemma flagged_count m u bs :
  Z.of_nat (length (filter (fun b => N.eqb (b_bidder b) u && b_matched b) (map (PublishFacts.flag_with m) bs)))
  = MatchConseq.matched_count bs m u.
Proof.
  unfold MatchConseq.matched_count. f_equal. induction bs as [|b r IH]; [reflexivity|].
  cbn [map filter]. unfold PublishFacts.flag_with at 1 2. cbn [set_b_matched b_bidder b_matched].
  destruct (N.eqb (b_bidder b) u && existsb (N.eqb (b_id b)) m); cbn [length]; rewrite IH; reflexivity.
Qed.

Lemma matched_count_pos bs m u b :
  In b bs -> b_bidder b = u -> In (b_id b) m -> 0 < MatchConseq.matched_count bs m u.
Proof.
  intros Hb Eu Hm. unfold MatchConseq.matched_count.
  assert (Hin : In b (filter (fun b0 => N.eqb (b_bidder b0) u && existsb (N.eqb (b_id b0)) m) bs)).
  { apply filter_In. split; [exact Hb|]. apply andb_true_iff. split; [apply N.eqb_eq, Eu|].
    apply ListFacts.existsb_eqb_in. exact Hm. }
  destruct (filter _ bs) as [|x l]; [destruct Hin|]. cbn [length]. lia.
Qed.

Theorem c04_batch_model s o : Inv s -> c04_batch (model_trans s o) = true.
Proof.
  intros I. unfold c04_batch. apply forallb_forall. intros [a a'] Hin.
  destruct (settling_facts s o a a' I Hin) as (mi & wr & V). pose proof (sv_pre V) as Fa. pose proof (sv_book V) as BW. pose proof (sv_supply V) as Hsup.
  pose proof (sv_settles V) as Hw. pose proof (sv_dues V) as D. pose proof (sv_batch V) as Hbat.
  cbv zeta. cbn [fst snd].
  destruct (a_type a) eqn:Ty; [reflexivity|].
  pose proof (settles_with_wr _ _ _ _ _ _ Hw) as Ew. rewrite Ty in Ew. subst wr.
  destruct (settles_with_batch _ _ _ _ _ Hw) as (_ & _ & order & HV & HC).
  destruct (Hbat eq_refl) as (Epr & Ebs & _). rewrite FixedFacts.model_pre, Epr, Ebs.
  pose proof (EscrowBlock.Inv_denoms_wf s a I Fa Ty) as DW.
  destruct (MatchConseq.batch_refund_facts a _ _ order _ mi BW HV Hsup DW HC) as (R1 & R2 & R3 & _).
  cbv zeta in R1, R2, R3.
  pose proof (MatchConseq.batch_paid_strict a _ _ order _ mi BW HV Hsup DW HC) as R5.
  destruct (PublishFacts.batch_flag_facts a _ _ order _ mi BW HV Hsup HC) as (_ & _ & _ & _ & _ & _ & F7 & F8 & _).
  pose proof (du_alloc _ _ _ _ D) as Hal.
  set (tr := model_trans s o) in *. set (bs := bids_of s (a_id a)) in *. set (pd := a_pay_denom a) in *.
  apply forallb_forall. intros u _.
  destruct (N.eqb u (a_auctioneer a)) eqn:Eu; [reflexivity|]. cbn [orb].
  assert (Eg : received tr (a_id a) (a_sell_denom a) u = if existsb (N.eqb u) (bidders_of bs) then mi_alloc mi u else 0).
  { unfold received. rewrite (sv_received V u), (N.eqb_sym (a_auctioneer a) u), Eu. fold bs. lia. }
  assert (Er : refunded tr (a_id a) pd u = if existsb (N.eqb u) (bidders_of bs) then mi_refund mi u else 0).
  { subst pd. unfold refunded. rewrite (sv_refunded V u), (N.eqb_sym (a_auctioneer a) u), Eu. cbn [andb]. fold bs. destruct (a_scheds a); lia. }
  rewrite Eg, Er, flagged_count.
  apply andb_true_iff. split.
  - destruct (existsb (N.eqb u) (bidders_of bs)) eqn:Ex.
    + specialize (R1 u). specialize (R2 u). specialize (R3 u). specialize (Hal u).
      apply andb_true_iff. split; [apply andb_true_iff; split; [apply Z.leb_le; lia|apply Z.leb_le; lia]|].
      destruct (mi_alloc mi u =? 0) eqn:E0.
      * apply Z.eqb_eq in E0. apply Z.eqb_eq. apply R2. exact E0.
      * apply Z.eqb_neq in E0. assert (Hpos : 0 < mi_alloc mi u) by lia.
        apply F8 in Hpos. destruct Hpos as (b & Hb & Eb & Hm).
        pose proof (matched_count_pos bs (mi_matched mi) u b Hb Eb Hm) as Hk.
        specialize (R5 u Hk). apply andb_true_iff. split; [apply Z.leb_le; lia|apply Z.ltb_lt; exact R5].
    + unfold reserved_of. rewrite (not_bidder_filter _ _ Ex). reflexivity.
  - (* matched bids are priced at or above the published price *)
    apply forallb_forall. intros b' Hb'. apply in_map_iff in Hb'. destruct Hb' as (b & <- & Hb).
    unfold PublishFacts.flag_with. cbn [set_b_matched b_bidder b_matched b_price].
    destruct (N.eqb (b_bidder b) u && existsb (N.eqb (b_id b)) (mi_matched mi)) eqn:E; [|reflexivity].
    cbn [negb orb]. apply andb_true_iff in E. destruct E as [_ E]. apply ListFacts.existsb_eqb_in in E.
    apply Z.leb_le. apply F7; assumption.
Qed.

Theorem c04_fixed_model s o : Inv s -> c04_fixed (model_trans s o) = true.
Proof.
  intros I. rewrite FixedFacts.model_trans_eq. cbv zeta. unfold c04_fixed. cbn [t_pre t_op t_class t_post t_xfers].
  destruct o as [m| | | | | | |]; try reflexivity.
  destruct (class_of _) eqn:Hacc; try reflexivity. apply FixedFacts.class_KOk in Hacc.
  destruct (check_basic m) as [c|] eqn:CB; [|reflexivity].
  destruct c as [| | |u id bt price d amt| | |]; try reflexivity. destruct bt; try reflexivity.
  destruct (fixed_bid_post _ m u id price d amt CB Hacc) as (a & Fa & (_ & _ & Pr & _) & Hbp & Hba & E).
  destruct (FrameFacts.find_auction_some _ _ _ Fa) as [_ <-].
  rewrite E, (TxFacts.place_post_find _ a _ Fa). change (find_auction s (a_id a) = Some a) in Fa. rewrite Fa.
  (* the transfers of the state are the fee and the reservation; the remainder is lowered by what the bid buys *)
  set (b0 := TxFacts.new_bid (FixedFacts.ghost_reset s) u (a_id a) BFixed price d amt) in *.
  change (TxFacts.place_record a b0) with (set_remaining a (a_remaining a - sell_amount (a_pay_denom a) b0)).
  change (st_xfers (TxFacts.place_post (FixedFacts.ghost_reset s) a b0))
    with (coin_xfers (User u) Pool (p_bfee (st_params s))
          ++ send_xf (User u) (Escrow Paying (a_id a)) (a_pay_denom a) (pay_amount (a_pay_denom a) b0)).
  cbv zeta. cbn [a_remaining set_remaining].
  rewrite sum_xfers_app, sum_xfers_send_xf, sum_xfers_not_to by (apply Forall_coin_xfers; discriminate).
  rewrite !EqbFacts.addr_eqb_refl, N.eqb_refl. cbn [andb]. unfold ind.
  replace (a_remaining a - (a_remaining a - sell_amount (a_pay_denom a) b0)) with (sell_amount (a_pay_denom a) b0) by lia.
  change (b_price b0 = a_start_price a) in Pr. rewrite <- Pr.
  change price with (b_price b0) in Hbp. change amt with (b_amt b0) in Hba |- *. change d with (b_denom b0).
  destruct (N.eqb (b_denom b0) (a_pay_denom a)) eqn:Ed.
  - (* paid in the paying coin: the amount is the worth, the quantity what the worth buys, rounded down *)
    apply N.eqb_eq in Ed. rewrite (DecFacts.pay_amount_paying _ b0 Ed), (DecFacts.sell_amount_paying _ b0 Ed).
    pose proof (DecFacts.qty_of_worth_bounds (b_amt b0) (b_price b0) (Z.lt_le_incl _ _ Hba) Hbp) as H1.
    rewrite !andb_true_iff, Z.eqb_eq, Z.leb_le, Z.ltb_lt. lia.
  - (* asked in the selling coin: the amount is the quantity, the payment its price, rounded up *)
    apply N.eqb_neq in Ed. rewrite (DecFacts.pay_amount_selling _ b0 Ed), (DecFacts.sell_amount_selling _ b0 Ed).
    pose proof (DecFacts.pay_of_qty_bounds (b_amt b0) (b_price b0) (Z.lt_le_incl _ _ Hba) (Z.lt_le_incl _ _ Hbp)) as H1.
    rewrite !andb_true_iff, Z.eqb_eq, Z.leb_le, Z.ltb_lt. lia.
Qed.

Theorem c04_ok_model s o : Inv s -> c04_ok (model_trans s o) = true.
Proof.
  intros I. unfold c04_ok. rewrite (c04_batch_model s o I), (c04_fixed_model s o I). reflexivity.
Qed.

Theorem c04_delivered_model s o : Inv s -> c04_delivered (model_trans s o) = true.
Proof.
  intros I. pose proof (Chk05.c05_ok_model s o I) as H. unfold c05_ok in H.
  apply andb_true_iff in H. destruct H as [H _].
  unfold c04_delivered. rewrite forallb_forall in H. apply forallb_forall. intros p Hp. specialize (H p Hp).
  cbv zeta in H. cbv zeta. apply andb_true_iff in H. destruct H as [_ H].
  destruct (a_type (fst p)) eqn:Ty; [|reflexivity].
  rewrite forallb_forall in H. apply forallb_forall. intros u Hu. specialize (H u Hu). exact H.
Qed.

Lemma c11_ok_modify t : c11_ok t = true -> c04_modify t = true.
Proof.
  unfold c11_ok, c04_modify. intros H. apply andb_true_iff in H. destruct H as [H _].
  destruct (t_op t) as [m| | | | | | |]; try reflexivity.
  destruct (check_basic m) as [c|]; [|reflexivity].
  destruct c as [| | | |u id bid_id price d amt| |]; try reflexivity.
  apply andb_true_iff in H. destruct H as [_ H].
  destruct (oclass_eqb (t_class t) KOk); [|reflexivity].
  destruct (find_auction (t_pre t) id) as [a|]; [|discriminate H].
  destruct (find_bid (t_pre t) id bid_id) as [b|]; [|discriminate H].
  destruct (find_bid (t_post t) id bid_id) as [b'|]; [|discriminate H].
  apply andb_true_iff in H. destruct H as [_ H]. exact H.
Qed.

Theorem c04_all_model s o : Inv s -> c04_all (model_trans s o) = true.
Proof.
  intros I. unfold c04_all. rewrite (c04_ok_model s o I), (c04_delivered_model s o I).
  rewrite (c11_ok_modify _ (Chk11.c11_ok_model s o I)). reflexivity.
Qed.

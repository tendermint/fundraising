(* C17, veto means rejection: every handler and BeginBlocker reach the hooks only through
   call_hook, propagate its error, and never swallow it.  The trace of an operation always extends
   the old trace; an Ok result made no vetoed call; an error carries E_HOOK exactly when its last
   call was vetoed, and nothing is called after a veto. *)
From Coq Require Import ZArith NArith List Bool Lia.
From FR Require Import Types Bank Step Model Checkers.
From FR.Proofs Require Import HookBase HookFacts FrameFacts HookSites.
Import ListNotations.
Open Scope Z_scope.

Definition veto_call (ls : list (list N)) (h : hookcall) : bool :=
  match nth_error ls (N.to_nat (h_listener h)) with
  | Some l => existsb (N.eqb (h_kind h)) l
  | None => false
  end.
Definition vetoedL (ls : list (list N)) (tr : list hookcall) : bool := existsb (veto_call ls) tr.
Fixpoint stopsL (ls : list (list N)) (tr : list hookcall) : bool :=
  match tr with
  | [] => true
  | h :: rest => if veto_call ls h then match rest with [] => true | _ => false end else stopsL ls rest
  end.

(* Checkers.vetoed and Checkers.stops_at_veto read the listeners off a state; the proofs below need them of a list that stays
   the same while the state changes *)
Lemma vetoed_is_vetoedL : forall s tr, vetoed s tr = vetoedL (st_listeners s) tr.
Proof. reflexivity. Qed.

Lemma stops_at_veto_is_stopsL : forall s tr, stops_at_veto s tr = stopsL (st_listeners s) tr.
Proof.
  intros s tr. induction tr as [|h rest IH]; [reflexivity|].
  cbn [stops_at_veto stopsL]. rewrite IH. rewrite vetoed_is_vetoedL. unfold vetoedL. cbn [existsb].
  rewrite orb_false_r. reflexivity.
Qed.

Lemma vetoedL_app : forall ls a b, vetoedL ls (a ++ b) = vetoedL ls a || vetoedL ls b.
Proof. intros ls a b. unfold vetoedL. apply existsb_app. Qed.

Lemma stopsL_app : forall ls a b, vetoedL ls a = false -> stopsL ls (a ++ b) = stopsL ls b.
Proof.
  intros ls a b. induction a as [|h r IH]; intros H; [reflexivity|].
  unfold vetoedL in H. cbn [existsb] in H. apply orb_false_iff in H as [Hh Hr].
  cbn [app stopsL]. rewrite Hh. apply IH. exact Hr.
Qed.

Lemma stopsL_clean : forall ls a, vetoedL ls a = false -> stopsL ls a = true.
Proof. intros ls a H. rewrite <- (app_nil_r a). rewrite stopsL_app by exact H. reflexivity. Qed.

Lemma veto_call_mkcall : forall ls k kind args,
  veto_call ls (mkcall (0 + N.of_nat k) kind args) = match nth_error ls k with Some l => vetoes kind l | None => false end.
Proof. intros. unfold veto_call, mkcall. cbn [h_listener h_kind]. rewrite N.add_0_l, Nat2N.id. reflexivity. Qed.

Lemma calls_clean : forall ls kind args n,
  (forall j l, (j < n)%nat -> nth_error ls j = Some l -> vetoes kind l = false) ->
  vetoedL ls (calls_from 0 n kind args) = false.
Proof.
  intros ls kind args n H. induction n as [|n IH]; [reflexivity|].
  rewrite calls_from_snoc, vetoedL_app, IH by (intros j l Hj; apply H; lia).
  unfold vetoedL. cbn [existsb orb]. rewrite veto_call_mkcall, orb_false_r.
  destruct (nth_error ls n) as [l|] eqn:E; [apply (H n l); [lia | exact E] | reflexivity].
Qed.

Lemma veto_calls_shape : forall ls kind args k,
  first_veto kind ls = Some k ->
  vetoedL ls (calls_from 0 (S k) kind args) = true /\ stopsL ls (calls_from 0 (S k) kind args) = true.
Proof.
  intros ls kind args k H. apply first_veto_Some_inv in H as [[l [Hn Hl]] Hlt].
  pose proof (calls_clean ls kind args k Hlt) as Hc.
  assert (Hk : veto_call ls (mkcall (0 + N.of_nat k) kind args) = true) by (rewrite veto_call_mkcall, Hn; exact Hl).
  rewrite calls_from_snoc. split.
  - rewrite vetoedL_app, Hc. unfold vetoedL. cbn [existsb orb]. rewrite Hk. reflexivity.
  - rewrite stopsL_app by exact Hc. cbn [stopsL]. rewrite Hk. reflexivity.
Qed.

(* r was computed from a state with listeners ls and trace tr (pr projects the state out of a result): it keeps the
   listeners and extends the trace, an Ok result by calls none of which is vetoed, an error by calls that stop at the
   first veto, the last of them vetoed exactly when the code is E_HOOK *)
Definition goodG {A} (pr : A -> state) (ls : list (list N)) (tr : list hookcall) (r : res A) : Prop :=
  match r with
  | Ok a => st_listeners (pr a) = ls /\ exists cs, st_trace (pr a) = tr ++ cs /\ vetoedL ls cs = false
  | Err c tr' => exists cs, tr' = tr ++ cs /\ stopsL ls cs = true /\ vetoedL ls cs = N.eqb c E_HOOK
  end.
Notation good s r := (goodG (fun x : state => x) (st_listeners s) (st_trace s) r).

Lemma good_conv : forall {A} (pr : A -> state) ls tr ls' tr' r,
  goodG pr ls' tr' r -> ls' = ls -> tr' = tr -> goodG pr ls tr r.
Proof. intros A pr ls tr ls' tr' r H -> ->. exact H. Qed.

Lemma good_bind : forall {A B} (pa : A -> state) (pb : B -> state) ls tr (r : res A) (f : A -> res B),
  goodG pa ls tr r ->
  (forall a, r = Ok a -> goodG pb (st_listeners (pa a)) (st_trace (pa a)) (f a)) ->
  goodG pb ls tr (bind r f).
Proof.
  intros A B pa pb ls tr r f Hr Hf. destruct r as [a|c tr0]; cbn [bind].
  - destruct Hr as [Hl [cs [Ht Hv]]]. specialize (Hf a eq_refl). rewrite Hl, Ht in Hf.
    destruct (f a) as [b|c tr1].
    + destruct Hf as [Hl2 [cs2 [Ht2 Hv2]]]. split; [exact Hl2|]. exists (cs ++ cs2).
      split; [rewrite Ht2, app_assoc; reflexivity|]. rewrite vetoedL_app, Hv, Hv2. reflexivity.
    + destruct Hf as [cs2 [Ht2 [Hs2 Hv2]]]. exists (cs ++ cs2).
      split; [rewrite Ht2, app_assoc; reflexivity|]. split.
      * rewrite stopsL_app by exact Hv. exact Hs2.
      * rewrite vetoedL_app, Hv. exact Hv2.
  - destruct Hr as [cs [Ht [Hs Hv]]]. exists cs. repeat split; assumption.
Qed.

Lemma good_ok : forall {A} (pr : A -> state) ls tr a,
  st_listeners (pr a) = ls -> st_trace (pr a) = tr -> goodG pr ls tr (Ok a).
Proof.
  intros A pr ls tr a Hl Ht. split; [exact Hl|].
  exists []. rewrite app_nil_r. split; [exact Ht | reflexivity].
Qed.

Lemma good_err : forall {A} (pr : A -> state) ls tr c,
  N.eqb c E_HOOK = false -> goodG pr ls tr (Err c tr).
Proof.
  intros A pr ls tr c Hc. exists []. rewrite app_nil_r.
  split; [reflexivity|]. split; [reflexivity|]. rewrite Hc. reflexivity.
Qed.

Lemma good_fail : forall {A} (pr : A -> state) s c,
  N.eqb c E_HOOK = false -> goodG pr (st_listeners s) (st_trace s) (@fail A s c).
Proof. intros A pr s c Hc. unfold fail. apply good_err. exact Hc. Qed.

Lemma good_bankop : forall s (r : res state), bankop s r -> good s r.
Proof.
  intros s r B. destruct r as [s'|c tr].
  - apply good_ok; [apply (nb_listeners _ _ B) | apply (nb_trace _ _ B)].
  - destruct B as [-> Hc]. apply good_err. destruct Hc as [->| ->]; reflexivity.
Qed.

Create HintDb good.

Lemma send_good : forall s from to d amt, good s (send s from to d amt).
Proof. intros. apply good_bankop, send_bankop. Qed.
Lemma fund_pool_good : forall s u cs, good s (fund_pool s u cs).
Proof. intros. apply good_bankop, fund_pool_bankop. Qed.
Lemma pay_out_good : forall s from d us f, good s (pay_out s from d us f).
Proof. intros. apply good_bankop, pay_out_bankop. Qed.

Lemma call_hook_good : forall s kind args, good s (call_hook s kind args).
Proof.
  intros s kind args. rewrite call_hook_closed.
  destruct (first_veto kind (st_listeners s)) as [k|] eqn:Hk.
  - exists (calls_from 0 (S k) kind args). split; [reflexivity|].
    destruct (veto_calls_shape _ kind args k Hk) as [Hv Hs]. split; [exact Hs | exact Hv].
  - split; [reflexivity|]. exists (all_calls s kind args). split; [reflexivity|].
    apply calls_clean. intros j l _ Hj.
    apply (proj1 (first_veto_None kind _) Hk). eapply nth_error_In. exact Hj.
Qed.
#[export] Hint Resolve send_good fund_pool_good pay_out_good call_hook_good : good.

(* good_hint closes a goal by a lemma of the hint database good, up to the computation of listeners and trace; gstep
   applies the rule for the outermost constructor of the result: good_fail, good_err or good_ok at a leaf, good_bind at a
   bind (its first action by good_hint), a case split at an if or match.  A function built from these over the bank
   primitives and call_hook is therefore good by repeat gstep: it reaches the hooks through call_hook only and passes
   every error on.  The message handlers are walked so (place_bid_good and modify_bid_good say where gstep needs help);
   BeginBlocker is walked once in HookBase (good_reading below). *)
Ltac good_hint := eapply good_conv; [solve [eauto 2 with good nocore] | reflexivity | reflexivity].

Ltac gstep :=
  cbv beta;
  match goal with
  | |- goodG _ _ _ (fail _ _) => apply good_fail; reflexivity
  | |- goodG _ _ _ (Err _ (st_trace _)) => apply good_err; reflexivity
  | |- goodG _ _ _ (Ok _) => apply good_ok; reflexivity
  | |- goodG _ _ _ (let _ := _ in _) => cbv zeta
  | |- goodG _ _ _ (bind _ _) => eapply good_bind; [ good_hint | intros ? ?]
  | |- goodG _ _ _ (if ?b then _ else _) => destruct b eqn:?
  | |- goodG _ _ _ (match ?x with _ => _ end) => destruct x eqn:?
  | |- goodG _ _ _ _ => good_hint
  end.

Lemma create_fixed_good : forall s u up price sd samt pd vs start end_,
  good s (create_fixed s u up price sd samt pd vs start end_).
Proof. intros. unfold create_fixed. repeat gstep. Qed.

Lemma create_batch_good : forall s u up price minp sd samt pd vs maxr rate start end_,
  good s (create_batch s u up price minp sd samt pd vs maxr rate start end_).
Proof. intros. unfold create_batch. repeat gstep. Qed.

Lemma cancel_good : forall s u up id, good s (cancel s u up id).
Proof. intros. unfold cancel. repeat gstep. Qed.

Lemma validate_fixed_bid_good : forall s a b,
  goodG (fun _ : unit => s) (st_listeners s) (st_trace s) (validate_fixed_bid s a b).
Proof. intros. unfold validate_fixed_bid. repeat gstep. Qed.

Lemma validate_batch_bid_good : forall s a b d,
  goodG (fun _ : unit => s) (st_listeners s) (st_trace s) (validate_batch_bid s a b d).
Proof. intros. unfold validate_batch_bid. repeat gstep. Qed.
#[export] Hint Resolve validate_fixed_bid_good validate_batch_bid_good : good.

Lemma place_bid_good : forall s u id bt price d amt, good s (place_bid s u id bt price d amt).
Proof.
  intros. unfold place_bid.
  destruct (find_auction s id) as [a|]; [|gstep].
  destruct (negb (status_eqb (a_status a) Started)); [gstep|].
  destruct (atype_eqb (a_type a) Batch && (price <? a_min_price a)); [gstep|].
  destruct (find_allowed s id u) as [e|]; [|gstep].
  eapply good_bind; [good_hint|]. intros s1 _. cbv beta zeta.
  (* the value of this action is the state paired with the bid to store: gstep cannot guess the projection *)
  eapply (good_bind (@fst state bid)).
  - destruct bt; repeat gstep.
  - intros [s2 b] _. cbv beta iota. cbn [fst]. repeat gstep.
Qed.

Lemma modify_bid_good : forall s u id bid_id price d amt, good s (modify_bid s u id bid_id price d amt).
Proof.
  intros. unfold modify_bid. repeat gstep.
  (* the first action is a send or nothing, an if that no lemma of the hint database is about *)
  eapply (good_bind (fun x : state => x)); [destruct (0 <? _); repeat gstep|].
  intros s1 _. repeat gstep.
Qed.

Lemma add_entries_good : forall l s a, good s (add_entries s a l).
Proof.
  induction l as [|[[ea who] max] rest IH]; intros s a; cbn [add_entries].
  - repeat gstep.
  - destruct who as [up u|]; [|gstep]. destruct max as [m|]; [|gstep].
    destruct (negb (0 <? m)); [gstep|]. destruct (a_sell_amt a <? m); [gstep|].
    eapply good_conv; [apply IH | |]; rewrite put_allowed_eq; reflexivity.
Qed.
#[export] Hint Resolve add_entries_good : good.

Lemma api_add_good : forall s id l, good s (api_add s id l).
Proof. intros. unfold api_add. repeat gstep. Qed.

Lemma api_update_good : forall s id u max, good s (api_update s id u max).
Proof.
  intros. unfold api_update. repeat gstep. rewrite put_allowed_eq. apply good_ok; reflexivity.
Qed.

Lemma update_params_good : forall s auth cfee bfee period, good s (update_params s auth cfee bfee period).
Proof. intros. unfold update_params. repeat gstep. Qed.

Lemma handle_good : forall s c, good s (handle s c).
Proof.
  intros s c. destruct c; cbn [handle].
  - apply create_fixed_good.
  - apply create_batch_good.
  - apply cancel_good.
  - apply place_bid_good.
  - apply modify_bid_good.
  - destruct (st_switch s); [apply api_add_good | gstep].
  - apply update_params_good.
Qed.

(* BeginBlocker: good is a reading of the one walk of HookBase; how it composes is good_bind.  The last three lemmas of the
   walk ask for the hooks only for a Started auction that is due (HookBase.process_res): good has them for any. *)
Definition goodR (s s' : state) : Prop := good s (Ok s').
Definition goodF (s : state) (c : N) (tr : list hookcall) : Prop := good s (@Err state c tr).

Lemma good_reading : reading goodR goodF.
Proof.
  constructor.
  - intros s1 s2 s3 H12 H23. apply (good_bind (fun x : state => x) (fun x : state => x) _ _ (Ok s2) (fun _ => Ok s3) H12).
    intros a E. injection E as <-. exact H23.
  - intros s s1 c tr H1 H2. apply (good_bind (fun x : state => x) (fun x : state => x) _ _ (Ok s1) (fun _ => Err c tr) H1).
    intros a E. injection E as <-. exact H2.
  - intros s s' St. apply good_ok; [apply (sl_listeners _ _ St)|apply (sl_trace _ _ St)].
  - intros s id m. apply good_ok; reflexivity.
  - intros s c Hc. apply good_err, Hc.
Qed.
Lemma good_hooks : hooks goodR goodF.
Proof. exact call_hook_good. Qed.

(* the functions of BeginBlocker one by one; block_verdict needs the last *)
Lemma allocate_good : forall s a mi w, good s (allocate s a mi w).
Proof. intros. exact (allocate_res _ _ good_reading s a mi w good_hooks). Qed.
Lemma refund_selling_good : forall s a, good s (refund_selling s a).
Proof. intros. apply send_good. Qed.
Lemma apply_vesting_good : forall s a, good s (apply_vesting s a).
Proof. intros. exact (apply_vesting_res _ _ good_reading s a). Qed.
Lemma close_fixed_good : forall s a, good s (close_fixed s a).
Proof. intros. exact (close_fixed_res _ _ good_reading s a good_hooks). Qed.
Lemma settle_batch_good : forall s a mi, good s (settle_batch s a mi).
Proof. intros. exact (settle_batch_res _ _ good_reading s a mi good_hooks). Qed.
Lemma extend_round_good : forall s a, good s (extend_round s a).
Proof. intros. exact (extend_round_res _ _ good_reading s a). Qed.
Lemma close_batch_good : forall s orc a, good s (close_batch s orc a).
Proof. intros. exact (close_batch_res _ _ good_reading s orc a good_hooks). Qed.
Lemma release_loop_good : forall vs s a t, good s (release_loop s a t vs).
Proof. intros. exact (release_loop_res _ _ good_reading vs s a t). Qed.
Lemma begin_block_good : forall s t orc, good s (begin_block s t orc).
Proof. intros. exact (begin_block_res _ _ good_reading s t orc (fun _ _ _ _ => good_hooks)). Qed.

Definition is_call (o : op) : Prop :=
  match o with OTx _ | OApiAdd _ _ | OApiUpdate _ _ _ => True | _ => False end.

(* what every operation can be read against: the trace only grows; the growth is vetoed exactly
   when the outcome is herr, the failure a veto shows as; nothing is called after a veto; a vetoed operation leaves
   base with the grown trace.  (hook_err and hook_base below are herr and base as functions of the operation.) *)
Record verdict (s : state) (out : outcome * state) (herr : outcome) (base : state) : Prop := {
  vd_suffix : exists suffix, st_trace (snd out) = st_trace s ++ suffix;
  vd_iff : forall suffix, st_trace (snd out) = st_trace s ++ suffix ->
             (vetoed s suffix = true <-> fst out = herr);
  vd_stops : forall suffix, st_trace (snd out) = st_trace s ++ suffix -> stops_at_veto s suffix = true;
  vd_rollback : forall suffix, st_trace (snd out) = st_trace s ++ suffix -> vetoed s suffix = true ->
                  snd out = with_trace base (st_trace s ++ suffix)
}.

Arguments vd_suffix {s out herr base}.
Arguments vd_iff {s out herr base}.
Arguments vd_stops {s out herr base}.
Arguments vd_rollback {s out herr base}.

(* the trace grew by cs, so every suffix the fields speak of is cs *)
Lemma verdict_intro : forall s out herr base cs,
  st_trace (snd out) = st_trace s ++ cs ->
  (vetoed s cs = true <-> fst out = herr) -> stops_at_veto s cs = true ->
  (vetoed s cs = true -> snd out = with_trace base (st_trace s ++ cs)) ->
  verdict s out herr base.
Proof.
  intros s out herr base cs Ht Hi Hs Hr.
  assert (E : forall suffix, st_trace (snd out) = st_trace s ++ suffix -> suffix = cs).
  { intros suffix H. rewrite Ht in H. apply app_inv_head in H. symmetry. exact H. }
  constructor.
  - exists cs. exact Ht.
  - intros suffix H. rewrite (E _ H). exact Hi.
  - intros suffix H. rewrite (E _ H). exact Hs.
  - intros suffix H. rewrite (E _ H). exact Hr.
Qed.

(* how commit and the block steps report a result: ok with the new state, or err c with the error's trace on base *)
Lemma result_verdict : forall s ok (err : N -> outcome) base r,
  (forall c, ok <> err c) -> (forall c c', err c = err c' -> c = c') -> good s r ->
  verdict s (match r with Ok s' => (ok, s') | Err c tr => (err c, with_trace base tr) end) (err E_HOOK) base.
Proof.
  intros s ok err base r Hok Hinj G. destruct r as [s'|c tr].
  - destruct G as [Hl [cs [Ht Hv]]]. apply (verdict_intro _ _ _ _ cs); cbn [fst snd].
    + exact Ht.
    + rewrite vetoed_is_vetoedL, Hv. split; [discriminate | intros C; destruct (Hok _ C)].
    + rewrite stops_at_veto_is_stopsL. apply stopsL_clean. exact Hv.
    + rewrite vetoed_is_vetoedL, Hv. discriminate.
  - destruct G as [cs [Ht [Hs Hv]]]. apply (verdict_intro _ _ _ _ cs); cbn [fst snd].
    + sproj. exact Ht.
    + rewrite vetoed_is_vetoedL, Hv. split.
      * intros Hc. apply N.eqb_eq in Hc. now subst c.
      * intros Hc. apply Hinj in Hc. subst c. reflexivity.
    + rewrite stops_at_veto_is_stopsL. exact Hs.
    + intros _. rewrite Ht. reflexivity.
Qed.

Lemma commit_verdict : forall s r, good s r -> verdict s (commit s r) (Rejected E_HOOK) s.
Proof. intros s r. apply (result_verdict s Accepted Rejected s r); [discriminate | congruence]. Qed.

Lemma verdict_unchanged : forall s out herr base,
  st_trace (snd out) = st_trace s -> fst out <> herr -> verdict s out herr base.
Proof.
  intros s out herr base E Hne. apply (verdict_intro _ _ _ _ []).
  - rewrite app_nil_r. exact E.
  - split; [discriminate | intros; contradiction].
  - reflexivity.
  - discriminate.
Qed.

Theorem call_verdict : forall s o, is_call o -> verdict s (step s o) (Rejected E_HOOK) s.
Proof.
  intros s o Ho. destruct o as [m|a l|a u max| | | | |]; try contradiction; cbn [step].
  - unfold deliver_tx. destruct (check_basic m) as [c|].
    + apply commit_verdict. apply handle_good.
    + apply verdict_unchanged; [reflexivity | discriminate].
  - apply commit_verdict. apply api_add_good.
  - apply commit_verdict. apply api_update_good.
Qed.

Theorem block_verdict : forall s t orc, verdict s (step s (OBlock t orc)) (BlockErr E_HOOK) (with_now s t).
Proof.
  intros s t orc. cbn [step].
  apply (result_verdict s BlockOk BlockErr); [discriminate | congruence | apply begin_block_good].
Qed.

Theorem fault_block_verdict : forall s t orc k,
  verdict s (step s (OFaultBlock t orc k)) (BlockErr E_HOOK) (with_now s t).
Proof.
  intros s t orc k. destruct (fault_block_cases s t orc k) as [-> | ->]; [apply block_verdict|].
  apply verdict_unchanged; [reflexivity | discriminate].
Qed.

(* the failure a veto shows as, and the state it leaves but for the trace: every operation has a verdict *)
Definition hook_err (o : op) : outcome :=
  match o with OBlock _ _ | OFaultBlock _ _ _ => BlockErr E_HOOK | _ => Rejected E_HOOK end.
Definition hook_base (s : state) (o : op) : state :=
  match o with OBlock t _ | OFaultBlock t _ _ => with_now s t | _ => s end.

Theorem step_verdict s o : verdict s (step s o) (hook_err o) (hook_base s o).
Proof.
  destruct o as [m|a l|a u max|t orc|t orc k|from to d amt|ls|]; cbn [hook_err hook_base].
  1, 2, 3: apply call_verdict; exact I.
  - apply block_verdict.
  - apply fault_block_verdict.
  - cbn [step]. apply commit_verdict. destruct (0 <? amt); [apply send_good|apply good_fail; reflexivity].
  - apply verdict_unchanged; [reflexivity|discriminate].
  - apply verdict_unchanged; [apply genesis_no_hooks|]. cbn [step]. destruct (Genesis.genesis_roundtrip s) as [[v s']|]; discriminate.
Qed.

Lemma verdict_veto : forall s out herr base suffix,
  verdict s out herr base -> st_trace (snd out) = st_trace s ++ suffix -> vetoed s suffix = true ->
  fst out = herr /\ snd out = with_trace base (st_trace s ++ suffix).
Proof.
  intros s out herr base suffix V Hs Hv.
  split; [apply (vd_iff V suffix Hs); exact Hv | apply (vd_rollback V suffix Hs Hv)].
Qed.

Lemma verdict_clean : forall s out herr base suffix,
  verdict s out herr base -> st_trace (snd out) = st_trace s ++ suffix -> fst out <> herr ->
  vetoed s suffix = false.
Proof.
  intros s out herr base suffix V Hs Hne. destruct (vetoed s suffix) eqn:Hv; [|reflexivity].
  apply (vd_iff V suffix Hs) in Hv. contradiction.
Qed.

Arguments verdict_veto {s out herr base suffix}.
Arguments verdict_clean {s out herr base suffix}.

Theorem block_ok_not_vetoed : forall s t orc suffix,
  st_trace (snd (step s (OBlock t orc))) = st_trace s ++ suffix ->
  fst (step s (OBlock t orc)) = BlockOk -> vetoed s suffix = false.
Proof.
  intros s t orc suffix Hs Ha. apply (verdict_clean (block_verdict s t orc) Hs). rewrite Ha. discriminate.
Qed.

(* C07: block processing never fails, and never hides a failure.
   - in every state satisfying the global invariant, for every valid sweep-order oracle, BeginBlocker either succeeds
     or returns the veto of a registered listener (E_HOOK): the walk is InvAll.begin_block_verdict, read here for the
     outcomes of the two block operations; with no vetoing listener it succeeds (InvAll.block_never_fails);
   - a valid oracle always exists (the price-descending insertion sort of the auction's bids);
   - a failure of any auction of the walk is the result of the walk (process_all_error; for the block, with the
     roll-back, Properties/C07.v);
   - the executable statement c07_ok holds of every model transition from such a state with a valid oracle.
   C14, under the same invariant: the oracle of a block carries no information the state does not determine: two
   valid oracles give the same transition, so the block transition is a function of the state and the block time. *)
From Coq Require Import ZArith NArith List Bool Arith Lia Permutation Sorted.
From FR Require Import Types Match Step Model Spec Checkers.
From FR.Proofs Require Import InvDefs FrameFacts BlockFacts BlockWalk InvStaticBlock.
From FR.Proofs Require HookVeto GenesisRT GenesisSort MatchDemand MatchBatch.
From FR.Proofs Require Import EscrowBlock InvAll FixedFacts ListFacts Determinism LedgerSettle.
Import ListNotations.
Open Scope Z_scope.

Theorem block_fails_only_by_veto s t orc :
  Inv s -> oracle_ok s (OBlock t orc) ->
  fst (step s (OBlock t orc)) = BlockOk \/ fst (step s (OBlock t orc)) = BlockErr E_HOOK.
Proof.
  intros I Ho. cbn [step].
  destruct (begin_block_verdict s t orc I (oracle_ok_orc_ok _ _ _ Ho)) as [[s' H]|[_ [tr H]]]; rewrite H; cbn [fst]; auto.
Qed.

Lemma process_all_error t orc l1 a l2 s s1 c tr :
  process_all t orc s l1 = Ok s1 -> process t orc s1 a = Err c tr ->
  process_all t orc s (l1 ++ a :: l2) = Err c tr.
Proof.
  revert s. induction l1 as [|x l1 IH]; cbn [app process_all]; intros s H1 H2.
  - injection H1 as <-. rewrite H2. reflexivity.
  - destruct (process t orc s x) as [s0|c0 tr0]; cbn [bind] in *; [|discriminate]. apply IH; assumption.
Qed.

Fixpoint insert_desc (b : bid) (l : list bid) : list bid :=
  match l with
  | [] => [b]
  | x :: r => if b_price x <=? b_price b then b :: l else x :: insert_desc b r
  end.
Definition sort_desc (l : list bid) : list bid := fold_right insert_desc [] l.

(* sort_desc is Genesis.sort_by for the order "not cheaper", by computation *)
Lemma sort_desc_perm l : Permutation (sort_desc l) l.
Proof. exact (GenesisSort.sort_by_perm (fun b x => b_price x <=? b_price b) l). Qed.

(* a check chk of every adjacent pair by R (prices_desc, ties_by_id) survives the insertion of b when R puts b
   before the cheaper and after the dearer elements *)
Section Adjacent.
Variable R : bid -> bid -> bool.
Variable chk : list bid -> bool.
Hypothesis chk_nil : chk [] = true.
Hypothesis chk_cons : forall b l, chk (b :: l) = match l with [] => true | b' :: _ => R b b' && chk l end.

Lemma insert_desc_adjacent b l :
  chk l = true ->
  (forall x, In x l -> b_price x <= b_price b -> R b x = true) ->
  (forall x, In x l -> b_price b < b_price x -> R x b = true) ->
  chk (insert_desc b l) = true.
Proof.
  induction l as [|x r IH]; intros H Hb Hx; cbn [insert_desc]; [rewrite chk_cons; reflexivity|].
  destruct (b_price x <=? b_price b) eqn:E.
  - rewrite chk_cons, H, (Hb x (or_introl eq_refl)) by (apply Z.leb_le, E). reflexivity.
  - apply Z.leb_gt in E. rewrite chk_cons in H.
    assert (Hr : chk r = true) by (destruct r; [exact chk_nil|apply andb_true_iff in H; apply H]).
    specialize (IH Hr (fun y Hy => Hb y (or_intror Hy)) (fun y Hy => Hx y (or_intror Hy))).
    rewrite chk_cons, IH. destruct r as [|y r']; cbn [insert_desc].
    + rewrite (Hx x (or_introl eq_refl) E). reflexivity.
    + apply andb_true_iff in H.
      destruct (b_price y <=? b_price b); [rewrite (Hx x (or_introl eq_refl) E)|rewrite (proj1 H)]; reflexivity.
Qed.
End Adjacent.

Lemma sort_desc_sorted l : prices_desc (sort_desc l) = true.
Proof.
  induction l as [|b r IH]; [reflexivity|]. cbn [sort_desc fold_right]. fold (sort_desc r).
  apply (insert_desc_adjacent (fun x y => b_price y <=? b_price x) prices_desc eq_refl MatchBatch.prices_desc_cons); [exact IH| |].
  - intros x _ Hle. apply Z.leb_le, Hle.
  - intros x _ Hlt. apply Z.leb_le. lia.
Qed.

Lemma pick_bids_self bs : NoDup (map b_id bs) -> forall l, (forall x, In x l -> In x bs) -> pick_bids bs (map b_id l) = Some l.
Proof.
  intros ND. induction l as [|x r IH]; intros Hl; [reflexivity|]. cbn [map pick_bids].
  rewrite (find_key b_id bs x ND (Hl x (or_introl eq_refl))). rewrite IH; [reflexivity|].
  intros y Hy. apply Hl. now right.
Qed.

Lemma ties_by_id_cons b l :
  ties_by_id (b :: l) = match l with [] => true | b' :: _ => (negb (b_price b' =? b_price b) || N.ltb (b_id b) (b_id b')) && ties_by_id l end.
Proof. destruct l; reflexivity. Qed.

(* sort_desc keeps equal-priced bids in the order of the input: with ids ascending in the input, ties come by id *)
Lemma sort_desc_ties l : StronglySorted N.lt (map b_id l) -> ties_by_id (sort_desc l) = true.
Proof.
  induction l as [|b r IH]; intros H; [reflexivity|]. cbn [map] in H. inversion H as [|? ? Hs Hf]; subst.
  cbn [sort_desc fold_right]. fold (sort_desc r).
  apply (insert_desc_adjacent (fun x y => negb (b_price y =? b_price x) || N.ltb (b_id x) (b_id y)) ties_by_id
           eq_refl ties_by_id_cons); [apply IH, Hs| |].
  - intros y Hy _. apply (Permutation_in _ (sort_desc_perm r)) in Hy.
    rewrite Forall_forall in Hf. apply orb_true_iff.
    right. apply N.ltb_lt, Hf, in_map, Hy.
  - intros y _ Hlt. apply orb_true_iff. left.
    apply negb_true_iff, Z.eqb_neq. lia.
Qed.

Theorem valid_order_exists bs :
  StronglySorted N.lt (map b_id bs) -> valid_order bs (map b_id (sort_desc bs)) = Some (sort_desc bs).
Proof.
  intros SS. pose proof (ListFacts.sorted_lt_nodup _ SS) as ND.
  unfold valid_order. pose proof (sort_desc_perm bs) as Hp.
  rewrite map_length, (Permutation_length Hp), Nat.eqb_refl. cbn [andb].
  assert (Hnd : nodupN (map b_id (sort_desc bs)) = true).
  { apply MatchDemand.nodupN_iff. eapply Permutation_NoDup; [|exact ND]. apply Permutation_map.
    symmetry. exact Hp. }
  rewrite Hnd. rewrite (pick_bids_self bs ND).
  - rewrite sort_desc_sorted, (sort_desc_ties bs SS). reflexivity.
  - intros x Hx. eapply Permutation_in; [exact Hp|exact Hx].
Qed.

Definition natural_orc (s : state) : list (N * list N) :=
  map (fun a => (a_id a, map b_id (sort_desc (bids_of s (a_id a))))) (st_auctions s).

Theorem natural_oracle_ok s t : Inv s -> oracle_ok s (OBlock t (natural_orc s)).
Proof.
  intros I a Ha _ _ _. exists (map b_id (sort_desc (bids_of s (a_id a)))), (sort_desc (bids_of s (a_id a))). split.
  - unfold natural_orc.
    apply (find_unique _ _ (a_id a, map b_id (sort_desc (bids_of s (a_id a))))); [|apply N.eqb_refl|].
    + apply (in_map (fun a => (a_id a, map b_id (sort_desc (bids_of s (a_id a)))))), Ha.
    + intros y Hy E. apply in_map_iff in Hy. destruct Hy as (a1 & <- & Ha1).
      apply N.eqb_eq in E. cbn [fst] in E.
      rewrite (NoDup_map_inj a_id _ a1 a (proj1 (Inv_ids_ok s I)) Ha1 Ha E). reflexivity.
  - apply valid_order_exists. apply GenesisRT.bid_ids_sorted, (inv_bids _ I).
Qed.

Corollary some_block_succeeds s t :
  Inv s -> no_veto s H_BeforeAllocated = true -> fst (step s (OBlock t (natural_orc s))) = BlockOk.
Proof. intros I Hnv. apply block_never_fails; [exact I|exact Hnv|apply natural_oracle_ok, I]. Qed.

Theorem block_outcomes s o :
  Inv s -> oracle_ok s o -> is_block o = true ->
  fst (step s o) = BlockOk \/ fst (step s o) = BlockErr E_HOOK
  \/ ((exists t orc k, o = OFaultBlock t orc k) /\ fst (step s o) = BlockErr E_FAULT).
Proof.
  intros I Ho B. destruct o as [m|id l|id u max|t orc|t orc k|from to d amt|ls|]; try discriminate B.
  - destruct (block_fails_only_by_veto s t orc I Ho); auto.
  - cbn [step].
    destruct (begin_block_verdict s t orc I (oracle_ok_orc_ok s t orc Ho)) as [[s' H]|[_ [tr H]]]; rewrite H.
    + destruct (Nat.ltb k (length (st_xfers s') - length (st_xfers s))); cbn [fst]; [|auto].
      right. right. split; [eauto|reflexivity].
    + cbn [fst]. auto.
Qed.

Theorem c07_ok_model s o : Inv s -> oracle_ok s o -> c07_ok (model_trans s o) = true.
Proof.
  intros I Ho. pose proof (Inv_ghost_reset s I) as I0.
  rewrite model_trans_eq. cbv zeta.
  unfold c07_ok. cbn [t_post t_pre t_op t_class t_fault t_trace].
  set (out := fst (step (ghost_reset s) o)). set (s' := snd (step (ghost_reset s) o)).
  change (Checkers.is_block o) with (FrameFacts.is_block o).
  destruct (FrameFacts.is_block o) eqn:B; [|reflexivity].
  assert (Ho0 : oracle_ok (ghost_reset s) o) by (destruct o; exact Ho).
  assert (V : vetoed s (st_trace s') = true <-> out = BlockErr E_HOOK).
  { assert (HV : HookVeto.verdict (ghost_reset s) (step (ghost_reset s) o) (BlockErr E_HOOK) (with_now (ghost_reset s) (block_time o))).
    { destruct o as [m|id l|id u max|t orc|t orc k|from to d amt|ls|]; try discriminate B;
        [apply HookVeto.block_verdict|apply HookVeto.fault_block_verdict]. }
    apply (HookVeto.vd_iff HV (st_trace s')). reflexivity. }
  destruct (block_outcomes (ghost_reset s) o I0 Ho0 B) as [H|[H|[(t & orc & k & ->) H]]]; fold out in H; rewrite H in *.
  - assert (Hv : vetoed s (st_trace s') = false).
    { destruct (vetoed s (st_trace s')); [|reflexivity]. destruct V as [V _].
      pose proof (V eq_refl) as X. discriminate X. }
    rewrite Hv. destruct o; reflexivity.
  - destruct V as [_ V]. rewrite (V eq_refl).
    rewrite orb_true_r. reflexivity.
  - reflexivity.
Qed.

Lemma close_batch_orc_indep s orc orc' a :
  (exists o, valid_order (bids_of s (a_id a)) (oracle_ids orc (a_id a)) = Some o) ->
  (exists o, valid_order (bids_of s (a_id a)) (oracle_ids orc' (a_id a)) = Some o) ->
  close_batch s orc a = close_batch s orc' a.
Proof.
  intros [o H] [o' H']. destruct (valid_order_unique _ _ _ _ _ H H') as [_ E].
  unfold close_batch. cbv zeta.
  change (match find (fun x => N.eqb (fst x) (a_id a)) orc with Some (_, l) => l | None => [] end) with (oracle_ids orc (a_id a)).
  change (match find (fun x => N.eqb (fst x) (a_id a)) orc' with Some (_, l) => l | None => [] end) with (oracle_ids orc' (a_id a)).
  rewrite E. reflexivity.
Qed.

Lemma process_orc_indep t orc orc' s a :
  valid_for s t orc a -> valid_for s t orc' a -> process t orc s a = process t orc' s a.
Proof.
  intros V V'. unfold process. destruct (a_status a) eqn:St; try reflexivity.
  destruct (last_end a <=? t) eqn:Et; [|reflexivity]. apply Z.leb_le in Et.
  destruct (a_type a) eqn:Ty; [reflexivity|].
  apply close_batch_orc_indep; [apply V|apply V']; auto.
Qed.

Theorem process_all_orc_indep t orc orc' : forall l s,
  Inv s -> NoDup (map a_id l) -> (forall a, In a l -> In a (st_auctions s)) ->
  (forall a, In a l -> valid_for s t orc a) -> (forall a, In a l -> valid_for s t orc' a) ->
  process_all t orc s l = process_all t orc' s l.
Proof.
  intros l s I ND Hl V V'.
  apply (process_all_walk_ind t orc (fun s a => valid_for s t orc a /\ valid_for s t orc' a)
           (fun s l => process_all t orc s l = process_all t orc' s l)); try assumption.
  - intros s0 a s1 x E Hne [W W']. split; eapply valid_for_kept; eassumption.
  - reflexivity.
  - intros s0 a rest _ _ [W W'] IH. cbn [process_all]. rewrite <- (process_orc_indep t orc orc' s0 a W W').
    destruct (process t orc s0 a) as [s1|c tr] eqn:E; cbn [bind]; [apply IH; reflexivity|reflexivity].
  - intros a Ha. split; [apply V, Ha|apply V', Ha].
Qed.

Theorem begin_block_orc_indep s t orc orc' :
  Inv s -> orc_ok s t orc -> orc_ok s t orc' -> begin_block s t orc = begin_block s t orc'.
Proof.
  intros I H H'. rewrite !begin_block_eq.
  apply process_all_orc_indep.
  - apply Inv_with_now, I.
  - apply (Inv_ids_ok s I).
  - auto.
  - intros a Ha. exact (H a Ha).
  - intros a Ha. exact (H' a Ha).
Qed.

Theorem block_oracle_irrelevant s t orc orc' :
  Inv s -> oracle_ok s (OBlock t orc) -> oracle_ok s (OBlock t orc') ->
  step s (OBlock t orc) = step s (OBlock t orc')
  /\ forall k, step s (OFaultBlock t orc k) = step s (OFaultBlock t orc' k).
Proof.
  intros I H H'.
  pose proof (begin_block_orc_indep s t orc orc' I (oracle_ok_orc_ok _ _ _ H) (oracle_ok_orc_ok _ _ _ H')) as E.
  split; [|intros k]; cbn [step]; rewrite E; reflexivity.
Qed.


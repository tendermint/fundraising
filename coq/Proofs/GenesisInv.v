(* C15: `state_same` preserves every part of the global invariant, hence so does the GENESIS operation; what can be
   observed of a state (queries, find_bid) agrees on related states.
   Names: `X_same` carries X from s to s'; `same_X` (GenesisCongr.v) says that X maps related states to related ones. *)
From Coq Require Import ZArith NArith List Permutation.
From FR Require Import Types Genesis Model.
From FR.Proofs Require Import ListFacts InvDefs GenesisSort GenesisRT GenesisImport.
From FR.Proofs Require FrameFacts.
Import ListNotations.
Open Scope Z_scope.

Lemma find_bid_of s a i : find_bid s a i = find (fun b => N.eqb (b_id b) i) (bids_of s a).
Proof.
  unfold find_bid, bids_of.
  exact (find_filter_and (fun b => N.eqb (b_auction b) a) (fun b => N.eqb (b_id b) i) (st_bids s)).
Qed.

Section Same.
  Variables s s' : state.
  Hypothesis H : state_same s s'.

  Lemma find_auction_same j : find_auction s' j = find_auction s j.
  Proof. apply FrameFacts.find_auction_conv. apply H. Qed.

  Lemma in_bids_same b : In b (st_bids s') -> In b (st_bids s).
  Proof. apply Permutation_in. apply H. Qed.

  Lemma allowed_of_perm_same id : Permutation (allowed_of s' id) (allowed_of s id).
  Proof. unfold allowed_of. apply filter_perm. apply H. Qed.

  Lemma ids_seq_same : ids_seq s -> ids_seq s'.
  Proof. unfold ids_seq. rewrite (ss_auctions _ _ H), (ss_aseq _ _ H). exact (fun x => x). Qed.

  Lemma auctions_wf_same : auctions_wf s -> auctions_wf s'.
  Proof. unfold auctions_wf. rewrite (ss_auctions _ _ H). exact (fun x => x). Qed.

  Lemma bid_wf_same b : bid_wf s b -> bid_wf s' b.
  Proof.
    intros Hb. constructor.
    - apply (bwf_price s b Hb).
    - apply (bwf_amt s b Hb).
    - rewrite (ss_bseq _ _ H). apply (bwf_id s b Hb).
    - destruct (bwf_auction s b Hb) as [a [Hfa Hrest]]. exists a. split; [|exact Hrest].
      rewrite find_auction_same. exact Hfa.
  Qed.

  Lemma bids_wf_same : bids_wf s -> bids_wf s'.
  Proof.
    intros [H1 H2]. split.
    - rewrite Forall_forall in *. intros b Hb. apply bid_wf_same. apply H1. apply in_bids_same. exact Hb.
    - intros id. rewrite (ss_bids_of _ _ H), (ss_bseq _ _ H). apply H2.
  Qed.

  Lemma allowed_wf_same : allowed_wf s -> allowed_wf s'.
  Proof.
    intros [H1 H2]. split.
    - rewrite Forall_forall in *. intros x Hx. apply H1. exact (Permutation_in _ (ss_allowed_perm _ _ H) Hx).
    - eapply Permutation_NoDup; [|exact H2]. apply Permutation_map. apply Permutation_sym. apply H.
  Qed.

  Lemma bids_allowed_same : bids_allowed s -> bids_allowed s'.
  Proof.
    intros Hba b Hb. rewrite (ss_find_allowed _ _ H). apply Hba. apply in_bids_same. exact Hb.
  Qed.

  Lemma remaining_inv_same : remaining_inv s -> remaining_inv s'.
  Proof.
    intros Hr a Ha Ht. rewrite (ss_auctions _ _ H) in Ha. rewrite (ss_bids_of _ _ H). apply Hr; assumption.
  Qed.

  Lemma vq_wf_same v : vq_wf s v -> vq_wf s' v.
  Proof.
    intros Hv. constructor.
    - apply (vwf_amt s v Hv).
    - destruct (vwf_auction s v Hv) as [a [Hfa Hrest]]. exists a. split; [|exact Hrest].
      rewrite find_auction_same. exact Hfa.
  Qed.

  Lemma vqs_wf_same : vqs_wf s -> vqs_wf s'.
  Proof.
    intros [H1 [H2 H3]]. split; [|split].
    - rewrite Forall_forall in *. intros v Hv. apply vq_wf_same. apply H1. exact (Permutation_in _ (ss_vqs_perm _ _ H) Hv).
    - eapply Permutation_NoDup; [|exact H2]. apply Permutation_map. apply Permutation_sym. apply H.
    - intros a Ha Hst Hne. rewrite (ss_auctions _ _ H) in Ha. rewrite (ss_vqs_of _ _ H). apply H3; assumption.
  Qed.

  Lemma owed_same r id d : owed s' r id d = owed s r id d.
  Proof.
    unfold owed. rewrite find_auction_same. destruct (find_auction s id) as [a|]; [|reflexivity].
    rewrite (ss_bids_of _ _ H), (ss_vqs_of _ _ H). reflexivity.
  Qed.

  Lemma escrow_inv_same : escrow_inv s -> escrow_inv s'.
  Proof.
    intros [H1 H2]. split.
    - intros x d. rewrite (ss_bal _ _ H). apply H1.
    - intros r id d. rewrite owed_same, (ss_bal _ _ H). apply H2.
  Qed.

  Lemma mlen_inv_same : mlen_inv s -> mlen_inv s'.
  Proof.
    intros Hm id. specialize (Hm id). rewrite find_auction_same.
    destruct (find_auction s id) as [a|]; [|rewrite (ss_mlen _ _ H); exact Hm].
    destruct (a_type a); rewrite (ss_mlen _ _ H); [exact Hm|].
    rewrite (count_matched_perm _ _ id (ss_bids_perm _ _ H)). exact Hm.
  Qed.

  Lemma params_wf_same : params_wf s -> params_wf s'.
  Proof. unfold params_wf. rewrite (ss_params _ _ H). exact (fun x => x). Qed.

  Lemma fresh_inv_same : fresh_inv s -> fresh_inv s'.
  Proof.
    intros [H1 H2]. split.
    - intros id Hid. rewrite (ss_aseq _ _ H) in Hid.
      destruct (H1 id Hid) as [Ha [Hb [Hc [Hd He]]]].
      rewrite (ss_bseq _ _ H), (ss_bids_of _ _ H), (ss_vqs_of _ _ H), (ss_mlen _ _ H).
      repeat split; try assumption.
      pose proof (allowed_of_perm_same id) as Hp. rewrite Hc in Hp.
      apply Permutation_sym in Hp. apply Permutation_nil in Hp. exact Hp.
    - intros a Ha Hst. rewrite (ss_auctions _ _ H) in Ha. rewrite (ss_bids_of _ _ H). apply H2; assumption.
  Qed.

  Theorem state_same_inv : Inv s -> Inv s'.
  Proof.
    intros I. constructor.
    - apply ids_seq_same. apply I.
    - apply auctions_wf_same. apply I.
    - apply bids_wf_same. apply I.
    - apply allowed_wf_same. apply I.
    - apply bids_allowed_same. apply I.
    - apply remaining_inv_same. apply I.
    - apply vqs_wf_same. apply I.
    - apply escrow_inv_same. apply I.
    - apply mlen_inv_same. apply I.
    - apply params_wf_same. apply I.
    - apply fresh_inv_same. apply I.
  Qed.

  Lemma find_bid_same a i : find_bid s' a i = find_bid s a i.
  Proof. rewrite !find_bid_of. rewrite (ss_bids_of _ _ H). reflexivity. Qed.

  Theorem run_query_same q : allowed_wf s -> run_query s' q = run_query s q.
  Proof.
    intros Hal. destruct q as [a|st ty|a b|a u m|a u|a|a|]; cbn [run_query].
    - rewrite find_auction_same. reflexivity.
    - rewrite (ss_auctions _ _ H). reflexivity.
    - rewrite find_bid_same. reflexivity.
    - rewrite (ss_bids_of _ _ H). reflexivity.
    - rewrite (ss_find_allowed _ _ H). reflexivity.
    - (* the allow-list of an auction is listed in the store's iteration order: sorted, keys unique *)
      unfold allowed_of.
      rewrite (sort_by_keyed allowed_le allowed_le_total allowed_le_trans allowed_key _ _ allowed_le_key
                 (NoDup_map_filter _ _ _ (proj2 Hal)) (Permutation_sym (allowed_of_perm_same a))).
      reflexivity.
    - rewrite (ss_vqs_of _ _ H). reflexivity.
    - rewrite (ss_params _ _ H). reflexivity.
  Qed.
End Same.

Lemma state_same_refl s : state_same s s.
Proof.
  constructor; intros; try reflexivity.
  all: apply Permutation_refl.
Qed.

Lemma state_same_sym s s' : state_same s s' -> state_same s' s.
Proof.
  intros H. constructor; intros; try (symmetry; apply H).
  all: apply Permutation_sym; apply H.
Qed.

Lemma state_same_trans s1 s2 s3 : state_same s1 s2 -> state_same s2 s3 -> state_same s1 s3.
Proof.
  intros H1 H2. constructor; intros.
  all: etransitivity; [apply H2|apply H1].
Qed.

Theorem Inv_genesis s : Inv s -> Inv (snd (step s OGenesis)).
Proof.
  intros I. destruct (genesis_step s I) as [s' [Hstep Hsame]]. rewrite Hstep. cbn [snd].
  exact (state_same_inv s s' Hsame I).
Qed.

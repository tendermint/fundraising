(* From batch_result: the bounds on what calc_batch allots (C05, batch part), what it charges and refunds (C04, batch
   part), and that the matched bid ids are distinct ids of the book. *)
From Coq Require Import ZArith NArith List Bool Lia Permutation Sorting.
From FR Require Import Dec Types Match Spec.
From FR.Proofs Require Import ListFacts DecFacts MatchBase MatchSweep MatchDemand MatchBatch.
Import ListNotations.
Open Scope Z_scope.
Opaque P.

(* what bidder u's bids ask for at price p, all of them (priced below p included) *)
Definition asked_all (bs : list bid) (u : N) (p : Z) : Z := asked p u bs.

Lemma demand_of_le_asked bs cap u p :
  (forall b, In b bs -> 0 <= b_amt b) -> 0 < p -> demand_of bs cap u p <= asked p u bs.
Proof.
  intros Ha Hp. rewrite demand_of_eq.
  assert (asked p u (filter (fun b => p <=? b_price b) bs) <= asked p u bs); [|lia].
  apply keyed_sum_filter_le. intros b Hb. apply bid_qty_nonneg; [apply Ha, Hb|lia].
Qed.

Theorem batch_alloc_bounds a bs ids order al mi :
  book_wf bs al -> valid_order bs ids = Some order -> 0 <= a_sell_amt a ->
  calc_batch a bs order al = Some mi ->
  (forall u, 0 <= mi_alloc mi u <= cap_of al u) /\
  (forall u, mi_alloc mi u <= asked (mi_price mi) u bs) /\
  sumZ (map (mi_alloc mi) (bidders_of bs)) = mi_total mi /\
  0 <= mi_total mi <= a_sell_amt a.
Proof.
  intros WF VO Hs Hc.
  pose proof (wf_amt_nonneg _ _ WF) as Hamt. pose proof (wf_cap_nonneg _ _ WF) as Hcz.
  destruct (batch_result_cases a bs ids order al mi WF VO Hs Hc) as [(p & _ & C)|(_ & U)].
  - (* clears at p *)
    pose proof (cl_pos C) as Hpp. pose proof (cl_demand C) as Hd.
    rewrite (cl_price C), (cl_total C). split; [|split; [|split]].
    + intros u. rewrite (cl_alloc C). apply demand_of_bounds; [exact Hamt|exact Hpp|apply Hcz].
    + intros u. rewrite (cl_alloc C). apply demand_of_le_asked; assumption.
    + unfold total_demand. apply sumZ_map_ext. intros u _. apply (cl_alloc C).
    + lia.
  - (* nothing matched *)
    rewrite (un_price U), (un_total U). split; [|split; [|split]].
    + intros u. rewrite (un_alloc U). specialize (Hcz u). lia.
    + intros u. rewrite (un_alloc U). apply asked_nonneg.
      intros b Hb. apply bid_qty_nonneg; [|lia].
      apply Hamt. exact Hb.
    + rewrite (sumZ_map_ext _ (fun _ => 0)) by (intros u _; apply (un_alloc U)). apply sumZ_zeros.
    + lia.
Qed.

(* the denominations of batch bids: worth bids are paid in the paying coin (amount = what is
   reserved), how-many bids name the selling coin *)
Definition denoms_wf (pd : N) (bs : list bid) : Prop :=
  forall b, In b bs -> (b_type b = BWorth /\ b_denom b = pd) \/ (b_type b = BMany /\ b_denom b <> pd).

Lemma pay_amount_nonneg pd b : 0 <= b_amt b -> 0 <= b_price b -> 0 <= pay_amount pd b.
Proof.
  intros Ha Hp. unfold pay_amount. destruct (N.eqb (b_denom b) pd); [exact Ha|].
  apply pay_of_qty_nonneg; assumption.
Qed.

Lemma pay_le_reserved pd b p m :
  ((b_type b = BWorth /\ b_denom b = pd) \/ (b_type b = BMany /\ b_denom b <> pd)) ->
  0 < b_amt b -> 0 < p <= b_price b -> 0 <= m <= bid_qty_at b p ->
  pay_of_qty m p <= pay_amount pd b.
Proof.
  intros Hd Ha Hp Hm. unfold pay_amount. unfold bid_qty_at in Hm.
  destruct Hd as [[Ht Ed]|[Ht Nd]]; rewrite Ht in Hm.
  - rewrite Ed, N.eqb_refl.
    pose proof (pay_of_qty_mono m (qty_of_worth (b_amt b) p) p p ltac:(lia) ltac:(lia)).
    pose proof (worth_never_overpays (b_amt b) p ltac:(lia) ltac:(lia)). lia.
  - destruct (N.eqb_spec (b_denom b) pd) as [E|_]; [contradiction|].
    apply pay_of_qty_mono; lia.
Qed.

Lemma reserved_of_nonneg pd l u :
  (forall b, In b l -> 0 <= pay_amount pd b) -> 0 <= reserved_of pd l u.
Proof. apply keyed_sum_nonneg. Qed.

Lemma paid_in_le_reserved p pd u asg :
  (forall x, In x asg -> pay_of_qty (snd x) p <= pay_amount pd (fst x)) ->
  paid_in p u asg <= reserved_of pd (map fst asg) u.
Proof.
  intros H. unfold paid_in, reserved_of, of_bidder. rewrite filter_map_swap, map_map.
  apply sumZ_map_le. intros x Hx. apply filter_In in Hx. apply H, Hx.
Qed.

Lemma paid_in_nonneg p u asg :
  0 <= p -> (forall x, In x asg -> 0 <= snd x) -> 0 <= paid_in p u asg.
Proof.
  intros Hp H. apply keyed_sum_nonneg. intros x Hx. apply pay_of_qty_nonneg; [apply H, Hx|exact Hp].
Qed.

Definition nmatched (u : N) (asg : list (bid * Z)) : Z :=
  Z.of_nat (length (filter (fun x => 0 <? snd x) (of_bidder u asg))).

Lemma nmatched_cons u x asg :
  nmatched u (x :: asg) =
  (if N.eqb (b_bidder (fst x)) u then if 0 <? snd x then 1 else 0 else 0) + nmatched u asg.
Proof.
  unfold nmatched, of_bidder. cbn [filter]. destruct (N.eqb _ _); [|lia].
  cbn [filter]. destruct (0 <? snd x); [|lia]. cbn [length]. lia.
Qed.

(* one rounding up per matched bid *)
Lemma paid_in_bounds p u asg :
  0 <= p -> (forall x, In x asg -> 0 <= snd x) ->
  p * got u asg <= paid_in p u asg * P <= p * got u asg + nmatched u asg * (P - 1).
Proof.
  intros Hp. induction asg as [|x asg IH]; intros H.
  - unfold paid_in, got, nmatched. cbn [of_bidder filter map length]. rewrite sumZ_nil. lia.
  - rewrite paid_in_cons, got_cons, nmatched_cons.
    specialize (IH (fun y Hy => H y (or_intror Hy))).
    pose proof (pay_of_qty_tight (snd x) p (H x (or_introl eq_refl)) Hp) as T.
    destruct (N.eqb (b_bidder (fst x)) u); [|lia].
    destruct (0 <? snd x); lia.
Qed.

Lemma paid_in_zero p u asg :
  (forall x, In x asg -> 0 <= snd x) -> got u asg = 0 -> paid_in p u asg = 0.
Proof.
  intros H G. unfold paid_in. unfold got in G.
  assert (Z0 : forall x, In x (of_bidder u asg) -> snd x = 0).
  { apply sumZ_map_zero; [|exact G]. intros x Hx. apply filter_In in Hx. apply H, Hx. }
  rewrite (sumZ_map_ext _ (fun _ => 0)); [apply sumZ_zeros|].
  intros x Hx. rewrite (Z0 x Hx). apply pay_of_qty_0.
Qed.

Definition matched_count (bs : list bid) (matched : list N) (u : N) : Z :=
  Z.of_nat (length (filter (fun b => N.eqb (b_bidder b) u && existsb (N.eqb (b_id b)) matched) bs)).

Lemma picked_by_id_perm (bs M : list bid) :
  NoDup (map b_id bs) -> NoDup M -> incl M bs ->
  Permutation M (filter (fun b => existsb (N.eqb (b_id b)) (map b_id M)) bs).
Proof.
  intros NDbs NDM HM.
  apply NoDup_Permutation; [exact NDM|apply NoDup_filter, (NoDup_map_inv b_id); exact NDbs|].
  intros x. rewrite filter_In, existsb_exists. split.
  - intros Hx. split; [apply HM; exact Hx|]. exists (b_id x). split; [apply in_map; exact Hx|apply N.eqb_refl].
  - intros (Hx & i & Hi & Ei). apply N.eqb_eq in Ei. apply in_map_iff in Hi. destruct Hi as (y & Ey & Hy).
    assert (x = y); [|subst; exact Hy].
    apply (NoDup_map_inj b_id bs x y NDbs Hx (HM y Hy)). congruence.
Qed.

(* the entries of the assignment that got something are, as bids, the bids of the book whose id is matched, up to
   order (picked_by_id_perm): so, bidder by bidder, there are as many of the one as of the other *)
Lemma nmatched_count bs al ids order p u :
  book_wf bs al -> valid_order bs ids = Some order -> 0 < p ->
  nmatched u (batch_asg order al p) = matched_count bs (matched_ids (batch_asg order al p)) u.
Proof.
  intros WF VO Hp. pose proof (batch_asg_facts bs al ids order p WF VO Hp) as F.
  destruct (valid_order_ids_nodup bs ids order VO) as (NDbs & NDo).
  set (asg := batch_asg order al p) in *.
  set (M := map fst (filter (fun x => 0 <? snd x) asg)).
  assert (EM : matched_ids asg = map b_id M).
  { unfold matched_ids. subst M. rewrite map_map. reflexivity. }
  assert (PmM : Permutation M (filter (fun b => existsb (N.eqb (b_id b)) (map b_id M)) bs)).
  { apply picked_by_id_perm; [exact NDbs| |].
    - subst M. apply NoDup_map_filter. rewrite (af_fst F).
      apply NoDup_filter. apply (NoDup_map_inv b_id). exact NDo.
    - intros x Hx. subst M. apply in_map_iff in Hx. destruct Hx as (y & <- & Hy).
      apply filter_In in Hy. apply (af_in F y), Hy. }
  unfold nmatched, matched_count. f_equal. rewrite EM.
  unfold of_bidder. rewrite filter_comm, <- (map_length fst).
  rewrite <- (filter_map_swap (fun b => N.eqb (b_bidder b) u) fst). fold M.
  rewrite (Permutation_length (filter_perm (fun b => N.eqb (b_bidder b) u) _ _ PmM)).
  rewrite filter_filter. f_equal. apply filter_ext.
  intros x. apply andb_comm.
Qed.

Theorem batch_refund_facts a bs ids order al mi :
  book_wf bs al -> valid_order bs ids = Some order -> 0 <= a_sell_amt a ->
  denoms_wf (a_pay_denom a) bs ->
  calc_batch a bs order al = Some mi ->
  let pd := a_pay_denom a in
  let paid := fun u => reserved_of pd bs u - mi_refund mi u in
  (forall u, 0 <= mi_refund mi u <= reserved_of pd bs u) /\
  (forall u, mi_alloc mi u = 0 -> mi_refund mi u = reserved_of pd bs u) /\
  (forall u, mi_price mi * mi_alloc mi u <= paid u * P <=
             mi_price mi * mi_alloc mi u + matched_count bs (mi_matched mi) u * (P - 1)) /\
  (forall i, In i (mi_matched mi) -> exists b, In b bs /\ b_id b = i /\ mi_price mi <= b_price b).
Proof.
  intros WF VO Hs DW Hc pd paid.
  pose proof (valid_order_perm bs ids order VO) as Pm.
  assert (Hpa : forall b, In b bs -> 0 <= pay_amount pd b).
  { intros b Hb. pose proof (wf_amt _ _ WF b Hb). pose proof (wf_price _ _ WF b Hb). apply pay_amount_nonneg; lia. }
  pose proof (fun u => reserved_of_nonneg pd bs u Hpa) as Hres.
  destruct (batch_result_cases a bs ids order al mi WF VO Hs Hc) as [(p & _ & C)|(_ & U)].
  - (* clears at p *)
    pose proof (cl_pos C) as Hpp. pose proof (cl_asg C) as F. pose proof (af_in F) as A1.
    pose proof (fun u => nmatched_count bs al ids order p u WF VO Hpp) as Hk.
    pose proof (cl_refund C) as Hr. fold pd in Hr. rewrite (cl_price C), (cl_matched C).
    set (asg := batch_asg order al p) in *.
    assert (Hsn : forall x, In x asg -> 0 <= snd x) by (intros x Hx; apply (A1 x Hx)).
    assert (Hpaid_le : forall u, paid_in p u asg <= reserved_of pd bs u).
    { intros u. rewrite <- (reserved_of_perm pd order bs u Pm).
      apply Z.le_trans with (reserved_of pd (map fst asg) u).
      - apply paid_in_le_reserved. intros x Hx. destruct (A1 x Hx) as (Hb & Hle & Hm).
        apply pay_le_reserved; [apply DW; exact Hb|apply (wf_amt _ _ WF); exact Hb|lia|exact Hm].
      - rewrite (af_fst F). apply keyed_sum_filter_le. intros b Hb. apply Hpa, (Permutation_in _ Pm), Hb. }
    assert (Hpaid_nn : forall u, 0 <= paid_in p u asg) by (intros u; apply paid_in_nonneg; [lia|exact Hsn]).
    split; [|split; [|split]].
    + intros u. rewrite Hr. specialize (Hpaid_le u).
      specialize (Hpaid_nn u). lia.
    + intros u Hz. rewrite Hr. rewrite (cl_alloc C), <- (af_got F) in Hz.
      rewrite (paid_in_zero p u asg Hsn Hz). lia.
    + intros u. subst paid. cbv beta. rewrite Hr, (cl_alloc C), <- (af_got F), <- Hk.
      replace (reserved_of pd bs u - (reserved_of pd bs u - paid_in p u asg)) with (paid_in p u asg) by lia.
      apply (paid_in_bounds p u asg ltac:(lia) Hsn).
    + intros i Hi. apply matched_ids_in in Hi. destruct Hi as (x & Hx & _ & <-).
      destruct (A1 x Hx) as (Hb & Hle & _). exists (fst x). repeat split; assumption.
  - (* nothing matched *)
    pose proof (un_refund U) as Hr. fold pd in Hr. rewrite (un_price U), (un_matched U).
    split; [|split; [|split]].
    + intros u. rewrite Hr. specialize (Hres u). lia.
    + intros u _. apply Hr.
    + intros u. subst paid. cbv beta. rewrite Hr, (un_alloc U).
      assert (K : matched_count bs [] u = 0).
      { unfold matched_count. cbn [existsb].
        rewrite (proj2 (filter_nil_iff _ bs)) by (intros; apply andb_false_r). reflexivity. }
      rewrite K. lia.
    + intros i [].
Qed.

(* the strict form of the upper bound, for a bidder with at least one matched bid
   (for a bidder without matched bids both sides are 0, so the strict form is false there) *)
Corollary batch_paid_strict a bs ids order al mi :
  book_wf bs al -> valid_order bs ids = Some order -> 0 <= a_sell_amt a ->
  denoms_wf (a_pay_denom a) bs ->
  calc_batch a bs order al = Some mi ->
  forall u, 0 < matched_count bs (mi_matched mi) u ->
    (reserved_of (a_pay_denom a) bs u - mi_refund mi u) * P <
    mi_price mi * mi_alloc mi u + matched_count bs (mi_matched mi) u * P.
Proof.
  intros WF VO Hs DW Hc u Hk.
  destruct (batch_refund_facts a bs ids order al mi WF VO Hs DW Hc) as (_ & _ & H & _).
  cbv zeta in H. specialize (H u). lia.
Qed.

(* no hypothesis on the book: MatchBatch.calc_batch_static *)
Theorem batch_matched_ids a bs ids order al mi :
  valid_order bs ids = Some order -> calc_batch a bs order al = Some mi ->
  NoDup (mi_matched mi) /\ incl (mi_matched mi) (map b_id bs).
Proof.
  intros VO Hc. pose proof (valid_order_perm bs ids order VO) as Pm.
  destruct (valid_order_ids_nodup bs ids order VO) as (_ & NDo).
  destruct (calc_batch_static a bs order al mi Hc NDo) as (A & B & _). split; [exact A|].
  intros i Hi. exact (Permutation_in _ (Permutation_map b_id Pm) (B i Hi)).
Qed.

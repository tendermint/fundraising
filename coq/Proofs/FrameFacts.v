(* The words the statements about the life of an auction share, each with its first lemmas: the lookups (find_auction
   after put_auction, after an append), ids_ok, slice_eq / frame / glob_eq / esc_keep (what is the same in two states),
   is_block / block_time / target and the case split on GENESIS, terms_eq, round_bounded / bounded, last_due,
   bids_evolve_by (every bid stays, changed by R at most).
   Then the allow-list as a list (put_allowed_list, find_put_allowed, apersist: entries are never removed), and how a
   frame is proved: kept on one keyed list, frame_fields, the tactic by_fields, and by_glob for glob_eq; at the end what
   set_flags and put_bid write to the bids (bids_of_set_flags, set_flags_evolve; bids_of_put_bid).
   Everything here is about the shape of the state, no arithmetic. *)
From Coq Require Import ZArith NArith List Bool Lia.
From FR Require Import Types Bank Step.
From FR.Proofs Require Import ListFacts ResFacts BankFacts.
From FR.Proofs Require HookFacts.
Import ListNotations.
Open Scope Z_scope.

(* turns the hypotheses N.eqb x y = true / false into x = y / x <> y, and splits those of the form b && c = true *)
Ltac neqb :=
  repeat match goal with
  | H : N.eqb _ _ = true |- _ => apply N.eqb_eq in H
  | H : N.eqb _ _ = false |- _ => apply N.eqb_neq in H
  | H : andb _ _ = true |- _ => apply andb_true_iff in H; destruct H
  end.

Lemma with_trace_eta s : with_trace s (st_trace s) = s.
Proof. destruct s; reflexivity. Qed.
Lemma with_allowed_eta s : with_allowed s (st_allowed s) = s.
Proof. destruct s; reflexivity. Qed.

Lemma find_auction_some s j a : find_auction s j = Some a -> In a (st_auctions s) /\ a_id a = j.
Proof.
  unfold find_auction. intros H. apply find_some in H.
  destruct H as [H1 H2]. neqb. auto.
Qed.
Lemma find_bid_some s a i b : find_bid s a i = Some b -> In b (st_bids s) /\ b_auction b = a /\ b_id b = i.
Proof.
  unfold find_bid. intros H. apply find_some in H.
  destruct H as [H1 H2]. neqb. auto.
Qed.

Lemma find_auction_put s a j :
  find_auction (put_auction s a) j
  = if N.eqb j (a_id a) then match find_auction s j with Some _ => Some a | None => None end
    else find_auction s j.
Proof.
  unfold find_auction, put_auction. cbn [st_auctions with_auctions]. destruct (N.eqb j (a_id a)) eqn:E.
  - apply N.eqb_eq in E. subst j. apply (ListFacts.find_replace_same (fun x => N.eqb (a_id x) (a_id a))). apply N.eqb_refl.
  - apply (ListFacts.find_replace_other (fun x => N.eqb (a_id x) (a_id a)) (fun x => N.eqb (a_id x) j)).
    + rewrite N.eqb_sym. exact E.
    + intros x Hx. apply N.eqb_eq in Hx. rewrite Hx, N.eqb_sym. exact E.
Qed.

Lemma find_auction_put_same s a a0 :
  find_auction s (a_id a) = Some a0 -> find_auction (put_auction s a) (a_id a) = Some a.
Proof. intros H. rewrite find_auction_put, N.eqb_refl, H. reflexivity. Qed.

Lemma find_auction_put_other s a j : j <> a_id a -> find_auction (put_auction s a) j = find_auction s j.
Proof. intros H. rewrite find_auction_put. apply N.eqb_neq in H. rewrite H. reflexivity. Qed.

Lemma find_auction_conv s s' j : st_auctions s' = st_auctions s -> find_auction s' j = find_auction s j.
Proof. unfold find_auction. intros ->. reflexivity. Qed.
Lemma find_auction_conv_app s s' a j :
  st_auctions s' = st_auctions s ++ [a] ->
  find_auction s' j = match find_auction s j with Some x => Some x | None => if N.eqb (a_id a) j then Some a else None end.
Proof.
  intros H. unfold find_auction. rewrite H. exact (ListFacts.find_app_single (fun x => N.eqb (a_id x) j) (st_auctions s) a).
Qed.

Lemma find_after_put s s' a0 a' :
  st_auctions s' = st_auctions (put_auction s a') -> a_id a' = a_id a0 ->
  find_auction s (a_id a0) = Some a0 -> find_auction s' (a_id a0) = Some a'.
Proof.
  intros H Hid F. rewrite (find_auction_conv (put_auction s a') s' _ H), <- Hid. apply (find_auction_put_same s a' a0).
  rewrite Hid. exact F.
Qed.

Lemma map_id_put (l : list auction) (a : auction) :
  map a_id (map (fun x => if N.eqb (a_id x) (a_id a) then a else x) l) = map a_id l.
Proof.
  induction l as [|x l IH]; cbn [map]; [reflexivity|]. rewrite IH. f_equal.
  destruct (N.eqb (a_id x) (a_id a)) eqn:E; [neqb; congruence|reflexivity].
Qed.

Lemma find_auction_none_ids s s' j :
  map a_id (st_auctions s') = map a_id (st_auctions s) -> find_auction s j = None -> find_auction s' j = None.
Proof.
  intros HM HN. unfold find_auction in *. apply (ListFacts.find_none_key a_id).
  intros HI. rewrite HM in HI.
  apply in_map_iff in HI. destruct HI as (x & Hx & HI).
  pose proof (find_none _ _ HN x HI) as Hc. cbn beta in Hc. rewrite Hx, N.eqb_refl in Hc. discriminate Hc.
Qed.

Definition ids_ok (s : state) : Prop :=
  NoDup (map a_id (st_auctions s)) /\ Forall (fun a => (a_id a < st_aseq s)%N) (st_auctions s).
Lemma ids_ok_empty s : st_auctions s = [] -> ids_ok s.
Proof. unfold ids_ok. intros ->. split; constructor. Qed.

Lemma ids_ok_fresh s j : ids_ok s -> (st_aseq s <= j)%N -> find_auction s j = None.
Proof.
  intros [_ H] Hj. unfold find_auction. apply ListFacts.find_none_key. intros HI.
  apply in_map_iff in HI. destruct HI as (x & Hx & HI). rewrite Forall_forall in H. specialize (H x HI). lia.
Qed.

Lemma ids_ok_find s a : ids_ok s -> In a (st_auctions s) -> find_auction s (a_id a) = Some a.
Proof. intros [H _] HI. unfold find_auction. apply ListFacts.find_key; assumption. Qed.

Lemma ids_ok_same s s' :
  map a_id (st_auctions s') = map a_id (st_auctions s) -> st_aseq s' = st_aseq s -> ids_ok s -> ids_ok s'.
Proof.
  unfold ids_ok. intros H1 H2 [N1 F1]. rewrite H1, H2. split; [exact N1|].
  rewrite Forall_forall in *. intros x Hx.
  assert (HI : In (a_id x) (map a_id (st_auctions s))) by (rewrite <- H1; apply in_map; exact Hx).
  apply in_map_iff in HI. destruct HI as (y & Hy & HI). rewrite <- Hy. apply F1. exact HI.
Qed.

Lemma ids_ok_create s s' a :
  st_auctions s' = st_auctions s ++ [a] -> a_id a = st_aseq s -> st_aseq s' = (st_aseq s + 1)%N ->
  ids_ok s -> ids_ok s'.
Proof.
  unfold ids_ok. intros H1 H2 H3 [N1 F1]. rewrite H1, H3. split.
  - rewrite map_app. cbn [map]. apply ListFacts.NoDup_snoc; [exact N1|].
    intros HI. apply in_map_iff in HI. destruct HI as (y & Hy & HI).
    rewrite Forall_forall in F1. specialize (F1 y HI). lia.
  - apply Forall_app. split.
    + eapply Forall_impl; [|exact F1]. cbn beta. intros x Hx. lia.
    + constructor; [lia|constructor].
Qed.

(* everything the module keeps about auction j *)
Record slice_eq (j : N) (s s' : state) : Prop := {
  se_auction : find_auction s' j = find_auction s j;
  se_bids : bids_of s' j = bids_of s j;
  se_allowed : allowed_of s' j = allowed_of s j;
  se_vqs : vqs_of s' j = vqs_of s j;
  se_bseq : st_bseq s' j = st_bseq s j;
  se_mlen : st_mlen s' j = st_mlen s j;
  se_bal : forall r d, st_bal s' (Escrow r j) d = st_bal s (Escrow r j) d }.
Lemma slice_eq_refl j s : slice_eq j s s.
Proof. split; reflexivity. Qed.
Lemma slice_eq_trans j s1 s2 s3 : slice_eq j s1 s2 -> slice_eq j s2 s3 -> slice_eq j s1 s3.
Proof.
  intros [A1 A2 A3 A4 A5 A6 A7] [B1 B2 B3 B4 B5 B6 B7]. split; first [congruence | intros r d; rewrite B7; apply A7].
Qed.
Lemma slice_eq_sym j s1 s2 : slice_eq j s1 s2 -> slice_eq j s2 s1.
Proof. intros [A1 A2 A3 A4 A5 A6 A7]. split; first [congruence | intros r d; symmetry; apply A7]. Qed.

Definition frame (id : N) (s s' : state) : Prop := forall j, j <> id -> slice_eq j s s'.

(* the fields that are not per-auction and that the walk of a block (after the clock is set) never writes, and the
   order of the auction ids *)
Record glob_eq (s s' : state) : Prop := {
  ge_params : st_params s' = st_params s;
  ge_aseq : st_aseq s' = st_aseq s;
  ge_now : st_now s' = st_now s;
  ge_listeners : st_listeners s' = st_listeners s;
  ge_switch : st_switch s' = st_switch s;
  ge_ids : map a_id (st_auctions s') = map a_id (st_auctions s) }.
Arguments ge_params {s s'}. Arguments ge_aseq {s s'}. Arguments ge_now {s s'}.
Arguments ge_listeners {s s'}. Arguments ge_switch {s s'}. Arguments ge_ids {s s'}.
Lemma glob_eq_refl s : glob_eq s s.
Proof. split; reflexivity. Qed.
Lemma glob_eq_trans s1 s2 s3 : glob_eq s1 s2 -> glob_eq s2 s3 -> glob_eq s1 s3.
Proof. intros [A1 A2 A3 A4 A5 A6] [B1 B2 B3 B4 B5 B6]. split; congruence. Qed.

Lemma ids_ok_glob s s' : glob_eq s s' -> ids_ok s -> ids_ok s'.
Proof. intros G. exact (ids_ok_same s s' (ge_ids G) (ge_aseq G)). Qed.

Definition esc_keep (id : N) (b0 b : addr -> N -> Z) : Prop :=
  forall r j d, j <> id -> b (Escrow r j) d = b0 (Escrow r j) d.
Lemma esc_keep_refl id b : esc_keep id b b.
Proof. intros r j d _. reflexivity. Qed.
Lemma esc_keep_trans id b1 b2 b3 : esc_keep id b1 b2 -> esc_keep id b2 b3 -> esc_keep id b1 b3.
Proof. intros H1 H2 r j d Hj. rewrite (H2 r j d Hj). apply H1. exact Hj. Qed.

Definition addr_ok (id : N) (x : addr) : Prop := match x with Escrow _ j => j = id | _ => True end.

Lemma addr_eqb_esc_false id r j x : addr_ok id x -> j <> id -> addr_eqb (Escrow r j) x = false.
Proof.
  intros Hx Hj. destruct x as [u|q k|]; cbn [addr_eqb]; try reflexivity.
  cbn [addr_ok] in Hx. subst k. apply N.eqb_neq in Hj. rewrite Hj. apply andb_false_r.
Qed.

Lemma move_esc_keep id b f t d a : addr_ok id f -> addr_ok id t -> esc_keep id b (move b f t d a).
Proof.
  intros Hf Ht r j d' Hj. unfold move, bal_upd.
  rewrite (addr_eqb_esc_false id r j t Ht Hj), (addr_eqb_esc_false id r j f Hf Hj). reflexivity.
Qed.

Lemma with_bank_twice s b xs b' xs' : with_bank (with_bank s b xs) b' xs' = with_bank s b' xs'.
Proof. reflexivity. Qed.

(* Checkers.v defines is_block, block_time and target as well, for the monitors, which must not depend on a proof file;
   the statements of the properties use the ones here.  The two are convertible: a file that imports both qualifies
   (FrameFacts.is_block), a checker link passes by `change (Checkers.is_block o) with (FrameFacts.is_block o)`, and for
   target, which there takes a transition, by LifeTheorems.target_agrees. *)
Definition is_block (o : op) : bool := match o with OBlock _ _ | OFaultBlock _ _ _ => true | _ => false end.
Definition block_time (o : op) : Z := match o with OBlock t _ | OFaultBlock t _ _ => t | _ => 0 end.

Lemma op_eq_genesis_dec (o : op) : {o = OGenesis} + {o <> OGenesis}.
Proof. destruct o; try (right; discriminate). left. reflexivity. Qed.

(* the auction an operation is about *)
Definition target (s : state) (o : op) : option N :=
  match o with
  | OTx (MCreateFixed _ _ _ _ _ _ _) | OTx (MCreateBatch _ _ _ _ _ _ _ _ _ _) => Some (st_aseq s)
  | OTx (MCancel _ a) | OTx (MPlaceBid _ a _ _ _) | OTx (MModifyBid _ a _ _ _) | OTx (MAddAllowed a _ _ _) => Some a
  | OApiAdd a _ | OApiUpdate a _ _ => Some a
  | _ => None
  end.

Lemma target_some_tx s o tid : target s o = Some tid -> is_block o = false /\ o <> OGenesis.
Proof. destruct o; cbn; intros H; try discriminate H; split; try reflexivity; discriminate. Qed.

(* the terms of an auction with first_end among them; the theorems of C19 are stated with LifeTheorems.terms0_eq, which
   leaves first_end out (it is read off a_ends, which grows), and say what happens to first_end separately *)
Definition terms_eq (a a' : auction) : Prop :=
  a_id a' = a_id a /\ a_type a' = a_type a /\ a_auctioneer a' = a_auctioneer a /\ a_upper a' = a_upper a
  /\ a_start_price a' = a_start_price a /\ a_sell_denom a' = a_sell_denom a /\ a_sell_amt a' = a_sell_amt a
  /\ a_pay_denom a' = a_pay_denom a /\ a_scheds a' = a_scheds a /\ a_start a' = a_start a
  /\ first_end a' = first_end a /\ a_min_price a' = a_min_price a /\ a_max_round a' = a_max_round a
  /\ a_rate a' = a_rate a.

Definition round_bounded (a : auction) : Prop :=
  (1 <= length (a_ends a) <= N.to_nat (a_max_round a) + 1)%nat /\ (a_max_round a <= MaxExtendedRound)%N.
Definition bounded (s : state) : Prop := Forall round_bounded (st_auctions s).
Lemma bounded_empty s : st_auctions s = [] -> bounded s.
Proof. unfold bounded. intros ->. constructor. Qed.

(* the last entry of the queue is due: BlockFacts.last_due_rec is the same function by recursion on the queue
   (BlockFacts.last_due_eq), and reads an entry with BlockFacts.vq_due; block_rel is stated with this one *)
Definition last_due (t : Z) (vs : list vq) : bool :=
  match rev vs with v :: _ => negb (v_released v) && (v_time v <=? t) | [] => false end.

Definition bid_keys_eq (b b' : bid) : Prop :=
  b_auction b' = b_auction b /\ b_id b' = b_id b /\ b_bidder b' = b_bidder b /\ b_type b' = b_type b
  /\ b_denom b' = b_denom b.
Lemma bid_keys_eq_refl b : bid_keys_eq b b.
Proof. repeat split. Qed.

Definition flag_only (b b' : bid) : Prop := exists x, b' = set_b_matched b x.
Lemma flag_only_refl b : flag_only b b.
Proof. exists (b_matched b). destruct b; reflexivity. Qed.
Lemma flag_only_trans b1 b2 b3 : flag_only b1 b2 -> flag_only b2 b3 -> flag_only b1 b3.
Proof. intros [x ->] [y ->]. exists y. reflexivity. Qed.
Lemma flag_only_keys b b' : flag_only b b' -> bid_keys_eq b b'.
Proof. intros [x ->]. repeat split. Qed.

Definition bids_evolve_by (R : bid -> bid -> Prop) (s s' : state) : Prop :=
  forall a i b, find_bid s a i = Some b -> exists b', find_bid s' a i = Some b' /\ R b b'.
Definition bids_evolve : state -> state -> Prop := bids_evolve_by bid_keys_eq.

Lemma bids_evolve_by_sub (R R' : bid -> bid -> Prop) s s' :
  (forall b b', R b b' -> R' b b') -> bids_evolve_by R s s' -> bids_evolve_by R' s s'.
Proof. intros Sub H a i b F. destruct (H a i b F) as (b' & F' & K). exists b'. split; [exact F'|apply Sub, K]. Qed.

Lemma find_put_bid (l : list bid) (b : bid) (a i : N) :
  find (fun x => N.eqb (b_auction x) a && N.eqb (b_id x) i)
       (map (fun x => if N.eqb (b_auction x) (b_auction b) && N.eqb (b_id x) (b_id b) then b else x) l)
  = if N.eqb a (b_auction b) && N.eqb i (b_id b)
    then match find (fun x => N.eqb (b_auction x) a && N.eqb (b_id x) i) l with Some _ => Some b | None => None end
    else find (fun x => N.eqb (b_auction x) a && N.eqb (b_id x) i) l.
Proof.
  destruct (N.eqb a (b_auction b) && N.eqb i (b_id b)) eqn:E.
  - apply andb_true_iff in E. destruct E as [Ea Ei]. apply N.eqb_eq in Ea, Ei. subst a i.
    apply (ListFacts.find_replace_same (fun x => N.eqb (b_auction x) (b_auction b) && N.eqb (b_id x) (b_id b))).
    rewrite !N.eqb_refl. reflexivity.
  - apply (ListFacts.find_replace_other (fun x => N.eqb (b_auction x) (b_auction b) && N.eqb (b_id x) (b_id b))
             (fun x => N.eqb (b_auction x) a && N.eqb (b_id x) i)).
    + rewrite (N.eqb_sym (b_auction b)), (N.eqb_sym (b_id b)). exact E.
    + intros x Hx. apply andb_true_iff in Hx. destruct Hx as [Ha Hi]. apply N.eqb_eq in Ha, Hi.
      rewrite Ha, Hi, (N.eqb_sym (b_auction b)), (N.eqb_sym (b_id b)). exact E.
Qed.

Section BidsEvolve.
Variable R : bid -> bid -> Prop.
Hypothesis R_refl : forall b, R b b.
Hypothesis R_trans : forall b1 b2 b3, R b1 b2 -> R b2 b3 -> R b1 b3.

Lemma bids_evolve_by_same s s' : st_bids s' = st_bids s -> bids_evolve_by R s s'.
Proof. intros H a i b F. exists b. split; [|apply R_refl]. unfold find_bid in *. rewrite H. exact F. Qed.
Lemma bids_evolve_by_trans s1 s2 s3 : bids_evolve_by R s1 s2 -> bids_evolve_by R s2 s3 -> bids_evolve_by R s1 s3.
Proof.
  intros H1 H2 a i b F. destruct (H1 a i b F) as (b' & F' & K'). destruct (H2 a i b' F') as (b'' & F'' & K'').
  exists b''. split; [exact F''|]. eapply R_trans; eassumption.
Qed.
Lemma bids_evolve_by_app s s' e : st_bids s' = st_bids s ++ e -> bids_evolve_by R s s'.
Proof.
  intros H a i b F. exists b. split; [|apply R_refl]. unfold find_bid in *. rewrite H.
  rewrite ListFacts.find_app, F. reflexivity.
Qed.
Lemma bids_evolve_by_map s s' g :
  st_bids s' = map g (st_bids s) -> (forall b, bid_keys_eq b (g b)) -> (forall b, R b (g b)) -> bids_evolve_by R s s'.
Proof.
  intros H K Rg a i b F. exists (g b). split; [|apply Rg]. unfold find_bid in *. rewrite H.
  rewrite ListFacts.find_map_keep; [rewrite F; reflexivity|].
  intros x. destruct (K x) as (A1 & A2 & _). rewrite A1, A2. reflexivity.
Qed.
Lemma bids_evolve_by_put_bid s s' b0 b :
  st_bids s' = st_bids (put_bid s b) -> find_bid s (b_auction b) (b_id b) = Some b0 -> R b0 b ->
  bids_evolve_by R s s'.
Proof.
  intros H F0 K a i x F. unfold find_bid in *. rewrite H. unfold put_bid. cbn [st_bids with_bids].
  rewrite find_put_bid. destruct (N.eqb a (b_auction b) && N.eqb i (b_id b)) eqn:E.
  - apply andb_true_iff in E. destruct E as [Ea Ei]. apply N.eqb_eq in Ea, Ei. subst a i.
    rewrite F. exists b. split; [reflexivity|]. congruence.
  - exists x. split; [exact F|apply R_refl].
Qed.
End BidsEvolve.

(* follows from InvDefs.bids_wf (InvStaticBase.bid_keys_NoDup) *)
Definition bid_keys_unique (s : state) : Prop :=
  NoDup (map (fun b => (b_auction b, b_id b)) (st_bids s)).

Lemma find_of_in_unique (l : list bid) (b : bid) :
  NoDup (map (fun b => (b_auction b, b_id b)) l) -> In b l ->
  find (fun x => N.eqb (b_auction x) (b_auction b) && N.eqb (b_id x) (b_id b)) l = Some b.
Proof.
  intros ND HI. apply ListFacts.find_unique; [exact HI|rewrite !N.eqb_refl; reflexivity|].
  intros y Hy E. apply andb_true_iff in E. destruct E as [Ea Ei]. apply N.eqb_eq in Ea, Ei.
  apply (ListFacts.NoDup_map_inj (fun b => (b_auction b, b_id b)) l y b ND Hy HI). congruence.
Qed.

Lemma bids_evolve_by_in R s s' b :
  bid_keys_unique s -> bids_evolve_by R s s' -> In b (st_bids s) ->
  exists b', In b' (st_bids s') /\ R b b'.
Proof.
  intros U H HI. destruct (H (b_auction b) (b_id b) b) as (b' & F & K).
  - unfold find_bid. apply find_of_in_unique; assumption.
  - exists b'. split; [|exact K]. unfold find_bid in F. apply find_some in F. apply F.
Qed.

Definition put_allowed_list (l : list allowed) (a u : N) (max : Z) : list allowed :=
  let e := {| al_auction := a; al_bidder := u; al_max := max |} in
  match find (fun x => N.eqb (al_auction x) a && N.eqb (al_bidder x) u) l with
  | Some _ => map (fun x => if N.eqb (al_auction x) a && N.eqb (al_bidder x) u then e else x) l
  | None => l ++ [e]
  end.
Lemma put_allowed_eq s a u m : put_allowed s a u m = with_allowed s (put_allowed_list (st_allowed s) a u m).
Proof.
  unfold put_allowed, put_allowed_list, find_allowed.
  destruct (find (fun x => N.eqb (al_auction x) a && N.eqb (al_bidder x) u) (st_allowed s)); reflexivity.
Qed.
Lemma key_eqb_eq : forall a u a' u', N.eqb a a' && N.eqb u u' = true -> a = a' /\ u = u'.
Proof. intros a u a' u' H. apply andb_true_iff in H as [Ha Hu]. split; apply N.eqb_eq; assumption. Qed.

Lemma find_put_allowed : forall s a u m a' u',
  find_allowed (put_allowed s a u m) a' u' =
  if N.eqb a' a && N.eqb u' u then Some {| al_auction := a; al_bidder := u; al_max := m |}
  else find_allowed s a' u'.
Proof.
  intros s a u m a' u'. rewrite put_allowed_eq. unfold find_allowed, put_allowed_list. cbn [st_allowed with_allowed].
  set (p := fun x => N.eqb (al_auction x) a && N.eqb (al_bidder x) u).
  set (q := fun x => N.eqb (al_auction x) a' && N.eqb (al_bidder x) u').
  set (e := {| al_auction := a; al_bidder := u; al_max := m |}).
  assert (He : p e = true) by (unfold p, e; cbn; now rewrite !N.eqb_refl).
  destruct (N.eqb a' a && N.eqb u' u) eqn:Hk.
  - apply key_eqb_eq in Hk as [-> ->].
    destruct (find p (st_allowed s)) as [x|] eqn:Hf.
    + change (find p (map (fun x => if p x then e else x) (st_allowed s)) = Some e).
      rewrite (find_replace_same p e _ He), Hf. reflexivity.
    + change (find p (st_allowed s ++ [e]) = Some e). rewrite ListFacts.find_app_single, Hf, He. reflexivity.
  - assert (Hd : forall x, p x = true -> q x = false).
    { intros x Hx. apply key_eqb_eq in Hx as [Hxa Hxu]. unfold q.
      rewrite Hxa, Hxu, (N.eqb_sym a a'), (N.eqb_sym u u'). exact Hk. }
    destruct (find p (st_allowed s)) as [x|] eqn:Hf.
    + exact (find_replace_other p q e _ (Hd e He) Hd).
    + change (find q (st_allowed s ++ [e]) = find q (st_allowed s)).
      rewrite ListFacts.find_app_single, (Hd e He). destruct (find q (st_allowed s)); reflexivity.
Qed.

Definition apersist (s s' : state) : Prop :=
  forall a u, find_allowed s a u <> None -> find_allowed s' a u <> None.

Lemma apersist_refl : forall s, apersist s s.
Proof. intros s a u H. exact H. Qed.
Lemma apersist_trans : forall s1 s2 s3, apersist s1 s2 -> apersist s2 s3 -> apersist s1 s3.
Proof. intros s1 s2 s3 H12 H23 a u H. apply H23, H12, H. Qed.
Lemma apersist_eq : forall s s', st_allowed s' = st_allowed s -> apersist s s'.
Proof. intros s s' E a u H. unfold find_allowed in *. rewrite E. exact H. Qed.

Lemma put_allowed_persist : forall s a u m, apersist s (put_allowed s a u m).
Proof.
  intros s a u m a' u' H. rewrite find_put_allowed.
  destruct (N.eqb a' a && N.eqb u' u); [discriminate | exact H].
Qed.

(* A list field of the state (auctions, bids, allow-list, vesting queue) holds the entries of all auctions:
   kept key id l0 l says that those of every auction but id are the same in l as in l0.  Every lemma below adds one
   update on top of a list that is already kept, so a list built by any number of updates is kept by applying them
   outermost first down to kept_refl; this is what the hint database kept does. *)
Section Kept.
Context {A : Type} (key : A -> N).

Definition kept (id : N) (l0 l : list A) : Prop :=
  forall j, j <> id -> filter (fun x => N.eqb (key x) j) l = filter (fun x => N.eqb (key x) j) l0.

Lemma kept_refl id l : kept id l l.
Proof. intros j _. reflexivity. Qed.
Lemma kept_trans id l1 l2 l3 : kept id l1 l2 -> kept id l2 l3 -> kept id l1 l3.
Proof. intros H1 H2 j Hj. rewrite (H2 j Hj). apply H1, Hj. Qed.
Lemma kept_app id l0 l e : kept id l0 l -> (forall x, In x e -> key x = id) -> kept id l0 (l ++ e).
Proof.
  intros K H j Hj. rewrite <- (K j Hj). apply ListFacts.filter_app_none.
  intros x Hx. apply N.eqb_neq. rewrite (H x Hx). congruence.
Qed.
Lemma kept_snoc id l0 l e : kept id l0 l -> key e = id -> kept id l0 (l ++ [e]).
Proof. intros K H. apply kept_app; [exact K|]. intros x [<-|[]]. exact H. Qed.
Lemma kept_map id l0 l g :
  kept id l0 l -> (forall x, key x <> id -> g x = x) -> (forall x, key (g x) = key x) -> kept id l0 (map g l).
Proof.
  intros K H1 H2 j Hj. rewrite <- (K j Hj). apply ListFacts.filter_map_keep; intros x Hx.
  - apply H1. apply N.eqb_eq in Hx. congruence.
  - rewrite H2. exact Hx.
Qed.
Lemma kept_replace id l0 l (p : A -> bool) e :
  kept id l0 l -> key e = id -> (forall x, p x = true -> key x = id) ->
  kept id l0 (map (fun x => if p x then e else x) l).
Proof.
  intros K He Hp. apply kept_map; [exact K| |]; intros x; destruct (p x) eqn:E; try reflexivity.
  - intros Hx. destruct (Hx (Hp x E)).
  - rewrite He. symmetry. apply Hp, E.
Qed.
Lemma kept_find id l0 l j :
  kept id l0 l -> j <> id -> find (fun x => N.eqb (key x) j) l = find (fun x => N.eqb (key x) j) l0.
Proof.
  assert (E : forall p (l : list A), find p l = hd_error (filter p l)).
  { intros p. induction l1 as [|x l1 IH]; cbn [find filter]; [reflexivity|]. destruct (p x); [reflexivity|exact IH]. }
  intros H Hj. rewrite !E, (H j Hj). reflexivity.
Qed.
End Kept.

(* the same for the two per-auction counters *)
Definition fn_kept {V} (id : N) (f0 f : N -> V) : Prop := forall j, j <> id -> f j = f0 j.
Lemma fn_kept_refl {V} id (f : N -> V) : fn_kept id f f.
Proof. intros j _. reflexivity. Qed.
Lemma fn_kept_upd {V} id (f0 f : N -> V) v : fn_kept id f0 f -> fn_kept id f0 (upd f id v).
Proof. intros K j Hj. unfold upd. rewrite <- (K j Hj). apply N.eqb_neq in Hj. rewrite Hj. reflexivity. Qed.

Lemma frame_fields id s s' :
  kept a_id id (st_auctions s) (st_auctions s') -> kept b_auction id (st_bids s) (st_bids s') ->
  kept al_auction id (st_allowed s) (st_allowed s') -> kept v_auction id (st_vqs s) (st_vqs s') ->
  fn_kept id (st_bseq s) (st_bseq s') -> fn_kept id (st_mlen s) (st_mlen s') ->
  esc_keep id (st_bal s) (st_bal s') -> frame id s s'.
Proof.
  intros Ha Hb Hal Hv Hs Hm He j Hj.
  split; [apply (kept_find a_id id _ _ j Ha Hj)|apply Hb|apply Hal|apply Hv|apply Hs|apply Hm|intros r d; apply He]; exact Hj.
Qed.

Lemma kept_put_auction id l0 l a :
  kept a_id id l0 l -> a_id a = id -> kept a_id id l0 (map (fun x => if N.eqb (a_id x) (a_id a) then a else x) l).
Proof. intros K H. apply kept_replace; [exact K|exact H|]. intros x Hx. neqb. congruence. Qed.
Lemma kept_put_bid id l0 l b :
  kept b_auction id l0 l -> b_auction b = id ->
  kept b_auction id l0 (map (fun x => if N.eqb (b_auction x) (b_auction b) && N.eqb (b_id x) (b_id b) then b else x) l).
Proof. intros K H. apply kept_replace; [exact K|exact H|]. intros x Hx. neqb. congruence. Qed.
Lemma kept_put_allowed_list id l0 l u m : kept al_auction id l0 l -> kept al_auction id l0 (put_allowed_list l id u m).
Proof.
  intros K. unfold put_allowed_list. destruct (find _ l); [|apply kept_snoc; [exact K|reflexivity]].
  apply kept_replace; [exact K|reflexivity|]. intros x Hx. neqb. assumption.
Qed.
Lemma kept_set_flags id l0 l m :
  kept b_auction id l0 l ->
  kept b_auction id l0 (map (fun b => if N.eqb (b_auction b) id then set_b_matched b (existsb (N.eqb (b_id b)) m) else b) l).
Proof.
  intros K. apply kept_map; [exact K| |]; intros b; destruct (N.eqb (b_auction b) id) eqn:E; try reflexivity.
  intros H. neqb. contradiction.
Qed.

Create HintDb kept.
#[export] Hint Resolve kept_refl kept_snoc kept_app kept_put_auction kept_put_bid kept_put_allowed_list kept_set_flags
  fn_kept_refl fn_kept_upd esc_keep_refl : kept.

(* by_fields proves frame id s t for a state t built from s by the update functions below: the seven fields of frame_fields are had by
   computation, each is closed by the hints; what they cannot close (an id, an esc_keep fact not in the context) is left.
   A new update function is added to the list, with a kept lemma if it changes a list in a new way. *)
Ltac by_fields :=
  apply frame_fields;
  cbn [st_auctions st_bids st_allowed st_vqs st_bseq st_mlen st_bal
       with_trace with_aseq with_bank with_bseq with_auctions with_bids with_allowed with_vqs with_mlen
       with_now with_listeners with_params put_auction put_bid set_flags HookFacts.hooked];
  auto with kept.

Lemma frame_set_flags id s m : frame id s (set_flags s id m).
Proof. by_fields. Qed.

(* by_glob proves glob_eq s t for such a term t that keeps the clock, the counter, the parameters, the listeners and the order of
   the auctions: the six fields by computation; only put_auction needs a fact *)
Ltac by_glob :=
  split;
  cbn [st_auctions with_trace with_bank with_vqs with_bids with_mlen with_auctions put_auction set_flags HookFacts.hooked];
  rewrite ?map_id_put; reflexivity.

(* what set_flags writes: the count of the auction, and the flag of each of its bids *)
Definition flag_fn (id : N) (m : list N) (b : bid) : bid :=
  if N.eqb (b_auction b) id then set_b_matched b (existsb (N.eqb (b_id b)) m) else b.

Lemma set_flags_eq s id m :
  set_flags s id m = with_mlen (with_bids s (map (flag_fn id m) (st_bids s)))
                               (upd (st_mlen s) id (Z.of_nat (length m))).
Proof. reflexivity. Qed.

Lemma flag_fn_auction id m b : b_auction (flag_fn id m b) = b_auction b.
Proof. unfold flag_fn. destruct (N.eqb (b_auction b) id); reflexivity. Qed.
Lemma flag_fn_id id m b : b_id (flag_fn id m b) = b_id b.
Proof. unfold flag_fn. destruct (N.eqb (b_auction b) id); reflexivity. Qed.

Lemma bids_of_set_flags s id m j : bids_of (set_flags s id m) j = map (flag_fn id m) (bids_of s j).
Proof.
  unfold bids_of. rewrite set_flags_eq. cbn [st_bids with_bids with_mlen].
  apply filter_map_comm. intros x. rewrite flag_fn_auction. reflexivity.
Qed.

Lemma flag_fn_matched id m b : b_auction b = id -> b_matched (flag_fn id m b) = existsb (N.eqb (b_id b)) m.
Proof. intros E. unfold flag_fn. rewrite E, N.eqb_refl. reflexivity. Qed.
Lemma flag_fn_other id m b : b_auction b <> id -> flag_fn id m b = b.
Proof. intros E. unfold flag_fn. apply N.eqb_neq in E. rewrite E. reflexivity. Qed.

(* the bids of the auction itself: every one gets its flag *)
Lemma bids_of_set_flags_own s id m :
  bids_of (set_flags s id m) id = map (fun b => set_b_matched b (existsb (N.eqb (b_id b)) m)) (bids_of s id).
Proof.
  rewrite bids_of_set_flags. apply map_ext_in. intros b Hb. apply filter_In in Hb. destruct Hb as [_ Hb].
  unfold flag_fn. rewrite Hb. reflexivity.
Qed.

(* writing the flags changes nothing else of a bid *)
Lemma set_flags_evolve s id m : bids_evolve_by flag_only s (set_flags s id m).
Proof.
  eapply bids_evolve_by_map; [reflexivity| |]; intros b; cbn beta; destruct (N.eqb (b_auction b) id).
  - repeat split.
  - apply bid_keys_eq_refl.
  - eexists. reflexivity.
  - apply flag_only_refl.
Qed.

(* what put_bid writes: the one bid with the key of b' *)
Definition repl_fn (b' : bid) (x : bid) : bid :=
  if N.eqb (b_auction x) (b_auction b') && N.eqb (b_id x) (b_id b') then b' else x.
Lemma put_bid_eq s b' : put_bid s b' = with_bids s (map (repl_fn b') (st_bids s)).
Proof. reflexivity. Qed.
Lemma repl_fn_auction b' x : b_auction (repl_fn b' x) = b_auction x.
Proof.
  unfold repl_fn. destruct (N.eqb (b_auction x) (b_auction b') && N.eqb (b_id x) (b_id b')) eqn:E; [|reflexivity].
  neqb. congruence.
Qed.
Lemma repl_fn_id b' x : b_id (repl_fn b' x) = b_id x.
Proof.
  unfold repl_fn. destruct (N.eqb (b_auction x) (b_auction b') && N.eqb (b_id x) (b_id b')) eqn:E; [|reflexivity].
  neqb. congruence.
Qed.
Lemma bids_of_put_bid s b' j : bids_of (put_bid s b') j = map (repl_fn b') (bids_of s j).
Proof.
  unfold bids_of. rewrite put_bid_eq. cbn [st_bids with_bids].
  apply filter_map_comm. intros x. rewrite repl_fn_auction. reflexivity.
Qed.

(* the bids of the auction itself: found by id *)
Lemma bids_of_put_bid_own s b' id :
  b_auction b' = id ->
  bids_of (put_bid s b') id = map (fun x => if N.eqb (b_id x) (b_id b') then b' else x) (bids_of s id).
Proof.
  intros <-. rewrite bids_of_put_bid.
  apply map_ext_in. intros x Hx.
  apply filter_In in Hx. destruct Hx as [_ Hx]. apply N.eqb_eq in Hx. unfold repl_fn.
  rewrite Hx, N.eqb_refl. reflexivity.
Qed.

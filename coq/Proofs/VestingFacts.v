(* Vesting release (C09: each instalment is paid to the auctioneer in the first block at or after its release time and
   never again), the vocabulary: the transfers of a release (rel_xfers), the state it leaves as
   a term (released_state, in terms of apply_xfers: the balances after a list of transfers) with its fields
   (released_spec) and its queues (released_vqs_of), what a release does to the sums over one queue (release_sums), and
   pay_all for a settlement without a schedule.  The loop itself stands against these in VestingRelease. *)
From Coq Require Import ZArith NArith List Bool Lia.
From FR Require Import Types Bank Match Step.
From FR.Proofs Require Import ListFacts BankFacts.
From FR.Proofs Require Import ResFacts EqbFacts FrameFacts BlockFacts.
Import ListNotations.
Open Scope Z_scope.

Definition same_key (x k : vq) : bool := N.eqb (v_auction x) (v_auction k) && (v_time x =? v_time k).
Definition vkey (v : vq) : N * Z := (v_auction v, v_time v).
Definition mark (ks : list vq) (x : vq) : vq := if existsb (same_key x) ks then set_v_released x true else x.
(* the transfer ReleaseVestingPayingCoin issues for entry v of auction a *)
Definition xfer_of (a : auction) (v : vq) : xfer :=
  {| x_from := Escrow Vesting (a_id a); x_to := User (a_auctioneer a); x_denom := v_denom v; x_amt := v_amt v |}.
Definition due_of (t : Z) (vs : list vq) : list vq := filter (vq_due t) vs.
Definition paid_of (t : Z) (vs : list vq) : list vq := filter (fun v => negb (v_amt v =? 0)) (due_of t vs).
Definition rel_xfers (a : auction) (t : Z) (vs : list vq) : list xfer := map (xfer_of a) (paid_of t vs).
(* the balances after a list of transfers, the replay the ledger files are written in; what it does to one balance is
   Ledger.apply_xfers_net *)
Definition apply_xfer (b : addr -> N -> Z) (x : xfer) : addr -> N -> Z :=
  move b (x_from x) (x_to x) (x_denom x) (x_amt x).
Definition apply_xfers (b : addr -> N -> Z) (xs : list xfer) : addr -> N -> Z := fold_left apply_xfer xs b.
Definition release_vq (id : N) (t : Z) (x : vq) : vq :=
  if N.eqb (v_auction x) id && vq_due t x then set_v_released x true else x.

Record rel_spec (a : auction) (t : Z) (vs : list vq) (s s' : state) : Prop := {
  rs_vqs : st_vqs s' = map (mark (due_of t vs)) (st_vqs s);
  rs_xfers : st_xfers s' = st_xfers s ++ rel_xfers a t vs;
  rs_bal : st_bal s' = apply_xfers (st_bal s) (rel_xfers a t vs);
  rs_auctions : st_auctions s' = if last_due_rec t vs then st_auctions (put_auction s (set_status a Finished))
                                 else st_auctions s;
  rs_params : st_params s' = st_params s;
  rs_bids : st_bids s' = st_bids s;
  rs_allowed : st_allowed s' = st_allowed s;
  rs_aseq : st_aseq s' = st_aseq s;
  rs_bseq : st_bseq s' = st_bseq s;
  rs_mlen : st_mlen s' = st_mlen s;
  rs_now : st_now s' = st_now s;
  rs_listeners : st_listeners s' = st_listeners s;
  rs_switch : st_switch s' = st_switch s;
  rs_trace : st_trace s' = st_trace s }.

Lemma set_released_same x : v_released x = true -> set_v_released x true = x.
Proof. destruct x; cbn. intros ->. reflexivity. Qed.
Lemma set_released_twice x : set_v_released (set_v_released x true) true = set_v_released x true.
Proof. reflexivity. Qed.
Lemma same_key_set x k b : same_key (set_v_released x b) k = same_key x k.
Proof. reflexivity. Qed.
Lemma same_key_refl x : same_key x x = true.
Proof. unfold same_key. rewrite N.eqb_refl, Z.eqb_refl. reflexivity. Qed.
Lemma same_key_eq x k : same_key x k = true <-> vkey x = vkey k.
Proof.
  unfold same_key, vkey. rewrite andb_true_iff, N.eqb_eq, Z.eqb_eq. split.
  - intros [-> ->]. reflexivity.
  - intros H. injection H as -> ->. auto.
Qed.

Lemma mark_nil x : mark [] x = x.
Proof. reflexivity. Qed.
Lemma mark_cons k ks x : mark (k :: ks) x = mark ks (mark [k] x).
Proof.
  unfold mark. cbn [existsb]. rewrite orb_false_r.
  destruct (same_key x k) eqn:E; cbn [orb].
  - change (same_key (set_v_released x true)) with (same_key x).
    destruct (existsb (same_key x) ks); reflexivity.
  - reflexivity.
Qed.

Lemma mark_auction ks x : v_auction (mark ks x) = v_auction x.
Proof. unfold mark. destruct (existsb (same_key x) ks); reflexivity. Qed.

Lemma mark_other id ks x : (forall k, In k ks -> v_auction k = id) -> v_auction x <> id -> mark ks x = x.
Proof.
  intros Hk Hx. unfold mark. destruct (existsb (same_key x) ks) eqn:E; [|reflexivity].
  apply existsb_exists in E. destruct E as (k & Hin & SK). unfold same_key in SK. neqb. rewrite (Hk k Hin) in *. contradiction.
Qed.

Lemma mark_single v x :
  (if N.eqb (v_auction x) (v_auction v) && (v_time x =? v_time v) then set_v_released x true else x) = mark [v] x.
Proof. unfold mark, same_key. cbn [existsb]. rewrite orb_false_r. reflexivity. Qed.
Lemma map_mark_cons k ks l : map (mark (k :: ks)) l = map (mark ks) (map (mark [k]) l).
Proof. rewrite map_map. apply map_ext. intros x. apply mark_cons. Qed.

Lemma apply_xfers_app b xs ys : apply_xfers (apply_xfers b xs) ys = apply_xfers b (xs ++ ys).
Proof. unfold apply_xfers. rewrite fold_left_app. reflexivity. Qed.

Lemma due_of_cons t v vs : due_of t (v :: vs) = if vq_due t v then v :: due_of t vs else due_of t vs.
Proof. reflexivity. Qed.
Lemma rel_xfers_cons a t v vs :
  rel_xfers a t (v :: vs)
  = if vq_due t v && negb (v_amt v =? 0) then xfer_of a v :: rel_xfers a t vs else rel_xfers a t vs.
Proof.
  unfold rel_xfers, paid_of. rewrite due_of_cons. destruct (vq_due t v); cbn [andb filter]; [|reflexivity].
  destruct (negb (v_amt v =? 0)); reflexivity.
Qed.

Definition released_state (s : state) (a : auction) (t : Z) (vs : list vq) : state :=
  let s1 := with_vqs (with_bank s (apply_xfers (st_bal s) (rel_xfers a t vs)) (st_xfers s ++ rel_xfers a t vs))
                     (map (mark (due_of t vs)) (st_vqs s)) in
  if last_due_rec t vs then put_auction s1 (set_status a Finished) else s1.

Definition rel_upd (s : state) (xs : list xfer) (ks : list vq) : state :=
  with_vqs (with_bank s (apply_xfers (st_bal s) xs) (st_xfers s ++ xs)) (map (mark ks) (st_vqs s)).

Lemma released_state_eq s a t vs :
  released_state s a t vs
  = if last_due_rec t vs then put_auction (rel_upd s (rel_xfers a t vs) (due_of t vs)) (set_status a Finished)
    else rel_upd s (rel_xfers a t vs) (due_of t vs).
Proof. reflexivity. Qed.

(* the fields of the released state *)
Lemma released_spec a t vs s : rel_spec a t vs s (released_state s a t vs).
Proof. unfold released_state. split; destruct (last_due_rec t vs); reflexivity. Qed.

Lemma mark_due_eq l id t x :
  NoDup (map vkey l) -> In x l ->
  mark (due_of t (filter (fun y => N.eqb (v_auction y) id) l)) x = release_vq id t x.
Proof.
  intros ND Hx. unfold mark, release_vq.
  destruct (existsb (same_key x) (due_of t (filter (fun y => N.eqb (v_auction y) id) l))) eqn:E.
  - apply existsb_exists in E. destruct E as (k & Hk & SK).
    unfold due_of in Hk. apply filter_In in Hk. destruct Hk as [Hk Dk].
    apply filter_In in Hk. destruct Hk as [Hk Ak].
    apply same_key_eq in SK.
    assert (x = k) by (eapply NoDup_map_inj; eassumption). subst k.
    rewrite Ak, Dk. reflexivity.
  - destruct (N.eqb (v_auction x) id && vq_due t x) eqn:E2; [|reflexivity].
    apply andb_true_iff in E2. destruct E2 as [Ax Dx].
    assert (HE : existsb (same_key x) (due_of t (filter (fun y => N.eqb (v_auction y) id) l)) = true).
    { apply existsb_exists. exists x. split; [|apply same_key_refl].
      unfold due_of. apply filter_In. split; [|exact Dx]. apply filter_In. split; assumption. }
    congruence.
Qed.

Lemma release_vq_auction id t x : v_auction (release_vq id t x) = v_auction x.
Proof. unfold release_vq. destruct (N.eqb (v_auction x) id && vq_due t x); reflexivity. Qed.
Lemma release_vq_key id t x : vkey (release_vq id t x) = vkey x.
Proof. unfold release_vq. destruct (N.eqb (v_auction x) id && vq_due t x); reflexivity. Qed.
Lemma release_vq_other id t x : v_auction x <> id -> release_vq id t x = x.
Proof. unfold release_vq. intros H. apply N.eqb_neq in H. rewrite H. reflexivity. Qed.
Lemma release_vq_fields id t x :
  v_time (release_vq id t x) = v_time x /\ v_auctioneer (release_vq id t x) = v_auctioneer x
  /\ v_denom (release_vq id t x) = v_denom x /\ v_amt (release_vq id t x) = v_amt x.
Proof. unfold release_vq. destruct (N.eqb (v_auction x) id && vq_due t x); repeat split. Qed.
Lemma release_vq_flag id t x :
  v_released (release_vq id t x) = v_released x || (N.eqb (v_auction x) id && (v_time x <=? t)).
Proof.
  unfold release_vq, vq_due. destruct (N.eqb (v_auction x) id); cbn [andb].
  - destruct (v_time x <=? t); cbn [andb]; [|rewrite orb_false_r; reflexivity].
    destruct (v_released x) eqn:R; cbn [negb]; [exact R|reflexivity].
  - rewrite orb_false_r. reflexivity.
Qed.

(* what a release does to the three sums the invariants read off a queue: the due amounts pass from unreleased to released *)
Lemma release_sums id t : forall vs, (forall v, In v vs -> v_auction v = id) ->
  let vs' := map (release_vq id t) vs in
  let due := sumZ (map v_amt (due_of t vs)) in
  sumZ (map v_amt vs') = sumZ (map v_amt vs)
  /\ sumZ (map v_amt (filter v_released vs')) = sumZ (map v_amt (filter v_released vs)) + due
  /\ sumZ (map v_amt (filter (fun v => negb (v_released v)) vs'))
     = sumZ (map v_amt (filter (fun v => negb (v_released v)) vs)) - due.
Proof.
  induction vs as [|v r IH]; intros Hid; [repeat split|].
  destruct (IH (fun x Hx => Hid x (or_intror Hx))) as (IH1 & IH2 & IH3). cbv zeta in *.
  assert (E : release_vq id t v = if vq_due t v then set_v_released v true else v).
  { unfold release_vq. rewrite (Hid v (or_introl eq_refl)), N.eqb_refl. reflexivity. }
  unfold due_of in *. cbn [map filter]. rewrite E. clear E. unfold vq_due in *.
  destruct (v_time v <=? t), (v_released v) eqn:Er; cbn [andb negb v_released v_amt set_v_released];
    rewrite ?Er; cbn [negb map v_amt set_v_released]; rewrite ?sumZ_cons; lia.
Qed.

Lemma vqs_of_release l id t j :
  filter (fun y => N.eqb (v_auction y) j) (map (release_vq id t) l)
  = if N.eqb j id then map (release_vq id t) (filter (fun y => N.eqb (v_auction y) j) l)
    else filter (fun y => N.eqb (v_auction y) j) l.
Proof.
  rewrite filter_map_comm by (intros x; rewrite release_vq_auction; reflexivity).
  destruct (N.eqb j id) eqn:E; [reflexivity|].
  rewrite <- (map_id (filter _ l)) at 2. apply map_ext_in. intros x Hx.
  apply filter_In in Hx. destruct Hx as [_ Hx]. apply N.eqb_eq in Hx. apply N.eqb_neq in E.
  apply release_vq_other. congruence.
Qed.

(* the release of an auction's own queue, keys being unique: every entry of the store is released when it is due
   and belongs to the auction *)
Lemma released_vqs s a t :
  NoDup (map vkey (st_vqs s)) ->
  st_vqs (released_state s a t (vqs_of s (a_id a))) = map (release_vq (a_id a) t) (st_vqs s).
Proof.
  intros ND. transitivity (map (mark (due_of t (vqs_of s (a_id a)))) (st_vqs s)).
  - unfold released_state. cbv zeta. destruct (last_due_rec t _); reflexivity.
  - apply map_ext_in. intros x Hx. unfold vqs_of. apply mark_due_eq; assumption.
Qed.

Lemma released_vqs_of s a t j :
  NoDup (map vkey (st_vqs s)) ->
  vqs_of (released_state s a t (vqs_of s (a_id a))) j
  = if N.eqb j (a_id a) then map (release_vq (a_id a) t) (vqs_of s j) else vqs_of s j.
Proof. intros ND. unfold vqs_of at 1. rewrite (released_vqs s a t ND). apply vqs_of_release. Qed.

Lemma rel_xfers_ends a t vs x :
  In x (rel_xfers a t vs) -> x_from x = Escrow Vesting (a_id a) /\ x_to x = User (a_auctioneer a).
Proof. unfold rel_xfers. intros H. apply in_map_iff in H. destruct H as (v & <- & _). split; reflexivity. Qed.

(* the transfers of a release all leave the vesting escrow of the auction *)
Lemma rel_xfers_vout a t vs :
  filter (fun x => addr_eqb (x_from x) (Escrow Vesting (a_id a))) (rel_xfers a t vs) = rel_xfers a t vs.
Proof.
  apply filter_all_true. intros x Hx. destruct (rel_xfers_ends _ _ _ _ Hx) as [E _]. rewrite E. apply addr_eqb_refl.
Qed.

Definition pay_all (s : state) (a : auction) : state :=
  let r := st_bal s (Escrow Paying (a_id a)) (a_pay_denom a) in
  if r =? 0 then s
  else with_bank s (move (st_bal s) (Escrow Paying (a_id a)) (User (a_auctioneer a)) (a_pay_denom a) r)
         (st_xfers s ++ [{| x_from := Escrow Paying (a_id a); x_to := User (a_auctioneer a);
                            x_denom := a_pay_denom a; x_amt := r |}]).

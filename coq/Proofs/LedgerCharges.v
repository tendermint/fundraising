(* C02 at the level of a step.  Every operation books a list of transfers: the transfers of BeginBlocker leave the escrow
   accounts of the auctions it processes (process_all_ledger); step_ledger_rel, step_xfers_spec (the balance sheet after
   a step is the one before with step_xfers replayed), zero sum over a step.  Then: only the advertised amounts leave a
   user's account.
   - tx_xfers s o: the exact list of transfers of an ACCEPTED operation o in state s: a message pays its fee to the
     community pool and then its reservation into the signer's own auction's escrow, a cancellation refunds the selling
     escrow to the auctioneer, a plain send (OSend, not a message of the module) is the one transfer it names;
   - a non-accepted operation (rejected message, any block, listeners, GENESIS) only moves coins out of
     escrow accounts;
   - step_charges: what leaves User u in denomination d is exactly `advertised s o u d`. *)
From Coq Require Import ZArith NArith List Bool Arith Lia.
From FR Require Import Types Match Step Genesis Model Checkers.
From FR.Proofs Require Import InvDefs HookBase ListFacts ResFacts Ledger.
From FR.Proofs Require HookFacts FrameFacts TxFacts BlockWalk LedgerSettle ImportShape.
Import ListNotations.
Open Scope Z_scope.

(* every operation but blocks and GENESIS books the list of transfers that stands in its state *)
Lemma tx_ledger s o out s' : TxFacts.tx_shape s o out s' -> ledger s s'.
Proof.
  intros Sh. TxFacts.shape_cases Sh; try (apply ledger_same; split; reflexivity).
  all: eexists; apply (banked_ledger s _ _ Hp); split; reflexivity.
Qed.

(* BeginBlocker: the transfers of processing an auction leave its own escrow accounts (LedgerSettle.src_of, by
   BlockWalk.act_xfers_ends), so processing the auctions l books a list of transfers each of which leaves an escrow
   account of an auction of l (src_in l).  What the users want of the single transfers of a block follows: esc_src below
   (an escrow of some auction), LedgerSettle.not_src id for the auctions other than id. *)
Definition src_in (l : list auction) (x : xfer) : Prop := exists a, In a l /\ LedgerSettle.src_of (a_id a) x.

Lemma process_ledger t orc s a s' :
  process t orc s a = Ok s' -> exists xs, ledger_by s s' xs /\ Forall (LedgerSettle.src_of (a_id a)) xs.
Proof.
  intros H. apply BlockWalk.process_iff in H. destruct H as (x & _ & P & ->).
  exists (BlockWalk.act_xfers t s a x). split; [exact (BlockWalk.act_ledger t s a x P)|].
  eapply Forall_impl; [|apply BlockWalk.act_xfers_ends]. intros y [E _]. exact E.
Qed.

Lemma process_all_ledger t orc l s s' :
  process_all t orc s l = Ok s' -> exists xs, ledger_by s s' xs /\ Forall (src_in l) xs.
Proof.
  apply (BlockWalk.process_all_chain t orc (fun s s' => exists xs, ledger_by s s' xs /\ Forall (src_in l) xs) l).
  - intros s0. exists []. split; [apply ledger_by_refl|constructor].
  - intros s1 s2 s3 (xs & L1 & F1) (ys & L2 & F2). exists (xs ++ ys).
    split; [exact (ledger_by_trans _ _ _ _ _ L1 L2)|apply Forall_app; split; assumption].
  - intros s0 a s1 Ha H. destruct (process_ledger _ _ _ _ _ H) as (xs & L & F). exists xs. split; [exact L|].
    eapply Forall_impl; [|exact F]. intros y E. exists a. split; [exact Ha|exact E].
Qed.

Lemma begin_block_ledger_by s t orc s' :
  begin_block s t orc = Ok s' -> exists xs, ledger_by s s' xs /\ Forall (src_in (st_auctions s)) xs.
Proof.
  rewrite BlockWalk.begin_block_eq. intros H. destruct (process_all_ledger _ _ _ _ _ H) as (xs & L & F).
  exists xs. split; [|exact F]. eapply ledger_by_pre; [|exact L]. split; reflexivity.
Qed.

Lemma begin_block_ledger s t orc s' : begin_block s t orc = Ok s' -> ledger s s'.
Proof. intros H. destruct (begin_block_ledger_by _ _ _ _ H) as (xs & L & _). exists xs. exact L. Qed.

Lemma genesis_same_bank s : same_bank s (snd (step s OGenesis)).
Proof. split; apply (ImportShape.genesis_keeps s). Qed.

Theorem step_ledger_rel s o : ledger s (snd (step s o)).
Proof.
  destruct (FrameFacts.is_block o) eqn:B.
  { destruct (BlockWalk.step_block s o B) as [[_ H]|[_ (tr & ->)]].
    - apply (begin_block_ledger _ _ _ _ H).
    - apply ledger_same. split; reflexivity. }
  destruct (FrameFacts.op_eq_genesis_dec o) as [->|Hg]; [apply ledger_same, genesis_same_bank|].
  exact (tx_ledger _ _ _ _ (TxFacts.step_shape s o B Hg)).
Qed.

Theorem run_ledger_rel : forall ops s, ledger s (run s ops).
Proof.
  intros ops s. apply (TxFacts.run_ind_all (ledger s)); [|apply ledger_refl].
  intros s1 o L. exact (ledger_trans _ _ _ L (step_ledger_rel s1 o)).
Qed.

Lemma step_xfers_spec s o : ledger_by s (snd (step s o)) (step_xfers s o).
Proof.
  destruct (step_ledger_rel s o) as [xs L]. unfold step_xfers.
  rewrite (lb_xfers _ _ _ L), skipn_app, skipn_all, Nat.sub_diag. cbn [skipn app]. exact L.
Qed.

Corollary step_delta_is_net s o a d :
  st_bal (snd (step s o)) a d - st_bal s a d = net (step_xfers s o) a d.
Proof. rewrite (ledger_bal _ _ _ _ _ (step_xfers_spec s o)). lia. Qed.

Theorem step_zero_sum s o (A : list addr) d :
  NoDup A -> endpoints_in A (step_xfers s o) ->
  sumZ (map (fun a => st_bal (snd (step s o)) a d) A) = sumZ (map (fun a => st_bal s a d) A).
Proof. intros Hnd He. eapply zero_sum_by; [apply step_xfers_spec|assumption|assumption]. Qed.

Definition accepted (o : outcome) : bool := match o with Accepted => true | _ => false end.

(* the bid a MsgPlaceBid describes (the id is assigned by the handler; it does not matter for amounts) *)
Definition bid0 (id u : N) (bt : btype) (price : Z) (d : N) (amt : Z) : bid :=
  {| b_auction := id; b_id := 0; b_bidder := u; b_type := bt; b_price := price; b_denom := d; b_amt := amt;
     b_matched := false |}.

(* what an accepted operation may take from user u in denomination d: Checkers.advertised_charge over (s, o) *)
Definition advertised (s : state) (o : op) (u d : N) : Z :=
  match o with
  | OTx m =>
      match check_basic m with
      | Some (CCreateFixed v _ _ sd samt _ _ _ _) | Some (CCreateBatch v _ _ _ sd samt _ _ _ _ _ _) =>
          if N.eqb u v then coins_amount (p_cfee (st_params s)) d + (if N.eqb d sd then samt else 0) else 0
      | Some (CPlaceBid v id bt price bd amt) =>
          match find_auction s id with
          | Some a =>
              if N.eqb u v then
                coins_amount (p_bfee (st_params s)) d
                + (if N.eqb d (a_pay_denom a) then pay_amount (a_pay_denom a) (bid0 id v bt price bd amt) else 0)
              else 0
          | None => 0
          end
      | Some (CModifyBid v id bid_id price bd amt) =>
          match find_auction s id, find_bid s id bid_id with
          | Some a, Some b =>
              if N.eqb u v && N.eqb d (a_pay_denom a)
              then Z.max 0 (pay_amount (a_pay_denom a) (set_b_terms b price amt) - pay_amount (a_pay_denom a) b) else 0
          | _, _ => 0
          end
      | _ => 0
      end
  | OSend from _ d' amt => if N.eqb u from && N.eqb d d' then amt else 0
  | _ => 0
  end.

Lemma advertised_charge_eq t u d : advertised_charge t u d = advertised (t_pre t) (t_op t) u d.
Proof. reflexivity. Qed.

Definition tx_xfers (s : state) (o : op) : list xfer :=
  match o with
  | OTx m =>
      match check_basic m with
      | Some (CCreateFixed v _ _ sd samt _ _ _ _) | Some (CCreateBatch v _ _ _ sd samt _ _ _ _ _ _) =>
          coin_xfers (User v) Pool (p_cfee (st_params s)) ++ send_xf (User v) (Escrow Selling (st_aseq s)) sd samt
      | Some (CCancel v _ id) =>
          match find_auction s id with
          | Some a => send_xf (Escrow Selling id) (User (a_auctioneer a)) (a_sell_denom a)
                              (st_bal s (Escrow Selling id) (a_sell_denom a))
          | None => []
          end
      | Some (CPlaceBid v id bt price bd amt) =>
          match find_auction s id with
          | Some a => coin_xfers (User v) Pool (p_bfee (st_params s))
                      ++ send_xf (User v) (Escrow Paying id) (a_pay_denom a)
                                 (pay_amount (a_pay_denom a) (bid0 id v bt price bd amt))
          | None => []
          end
      | Some (CModifyBid v id bid_id price bd amt) =>
          match find_auction s id, find_bid s id bid_id with
          | Some a, Some b =>
              send_xf (User v) (Escrow Paying id) (a_pay_denom a)
                      (Z.max 0 (pay_amount (a_pay_denom a) (set_b_terms b price amt) - pay_amount (a_pay_denom a) b))
          | _, _ => []
          end
      | _ => []
      end
  | OSend from to d amt => [mkx (User from) to d amt]
  | _ => []
  end.

Definition out_of (xs : list xfer) (u d : N) : Z :=
  sum_xfers xs (fun x => addr_eqb (x_from x) (User u) && N.eqb (x_denom x) d).

(* LedgerSettle.src_of id x for some id *)
Definition esc_src (x : xfer) : Prop := exists r id, x_from x = Escrow r id.

Lemma out_of_nil u d : out_of [] u d = 0. Proof. reflexivity. Qed.
Lemma out_of_app xs ys u d : out_of (xs ++ ys) u d = out_of xs u d + out_of ys u d.
Proof. apply sum_xfers_app. Qed.
Lemma out_of_send_xf v t d' a u d :
  out_of (send_xf (User v) t d' a) u d = if N.eqb u v && N.eqb d d' then a else 0.
Proof.
  unfold out_of. rewrite sum_xfers_send. cbn [mkx x_from x_denom addr_eqb].
  rewrite (N.eqb_sym v u), (N.eqb_sym d' d). reflexivity.
Qed.
Lemma out_of_coin_xfers v t cs u d :
  out_of (coin_xfers (User v) t cs) u d = if N.eqb u v then coins_amount cs d else 0.
Proof.
  unfold coin_xfers, coins_amount. induction cs as [|[d' a] r IH]; cbn [flat_map filter fst snd].
  - rewrite out_of_nil. destruct (N.eqb u v); reflexivity.
  - rewrite out_of_app, IH, out_of_send_xf. rewrite (N.eqb_sym d d').
    destruct (N.eqb u v); cbn [andb]; [|lia].
    destruct (N.eqb d' d); cbn [map snd]; rewrite ?sumZ_cons; lia.
Qed.
(* a fee and a reservation by the same user *)
Lemma out_of_fee_send v cs t d' a u d :
  out_of (coin_xfers (User v) Pool cs ++ send_xf (User v) t d' a) u d
  = if N.eqb u v then coins_amount cs d + (if N.eqb d d' then a else 0) else 0.
Proof. rewrite out_of_app, out_of_coin_xfers, out_of_send_xf. destruct (N.eqb u v); cbn [andb]; lia. Qed.
Lemma out_of_esc xs u d : Forall esc_src xs -> out_of xs u d = 0.
Proof.
  intros H. apply sum_xfers_none.
  intros x Hx. rewrite Forall_forall in H.
  destruct (H x Hx) as (r & id & E). rewrite E. reflexivity.
Qed.

Theorem block_xfers_from_escrow s t orc s' :
  begin_block s t orc = Ok s' -> exists xs, st_xfers s' = st_xfers s ++ xs /\ Forall esc_src xs.
Proof.
  intros H. destruct (begin_block_ledger_by _ _ _ _ H) as (xs & L & F). exists xs. split; [exact (lb_xfers _ _ _ L)|].
  eapply Forall_impl; [|exact F]. intros y (a & _ & r & E). exists r, (a_id a). exact E.
Qed.

Lemma step_not_accepted_cases s o :
  fst (step s o) <> Accepted ->
  same_bank s (snd (step s o))
  \/ (FrameFacts.is_block o = true /\ exists t orc, begin_block s t orc = Ok (snd (step s o))).
Proof.
  intros Hna. destruct (FrameFacts.is_block o) eqn:B.
  { destruct (BlockWalk.step_block s o B) as [[_ H]|[_ (tr & E)]].
    - right. split; [reflexivity|eauto].
    - left. rewrite E. split; reflexivity. }
  left. destruct (FrameFacts.op_eq_genesis_dec o) as [->|Hg]; [exact (genesis_same_bank s)|].
  exact (TxFacts.tx_not_accepted _ _ _ _ (TxFacts.step_shape s o B Hg) Hna).
Qed.

Lemma step_nonblock_not_accepted s o :
  FrameFacts.is_block o = false -> fst (step s o) <> Accepted -> st_xfers (snd (step s o)) = st_xfers s.
Proof.
  intros Hb Hna. destruct (step_not_accepted_cases s o Hna) as [E|[C _]]; [apply E|congruence].
Qed.

Theorem step_not_accepted s o : fst (step s o) <> Accepted -> Forall esc_src (step_xfers s o).
Proof.
  intros Hna. destruct (step_not_accepted_cases s o Hna) as [E|(_ & t & orc & H)].
  - rewrite (ledger_by_unique _ _ _ _ (step_xfers_spec s o) (ledger_by_nil _ _ E)). constructor.
  - destruct (block_xfers_from_escrow _ _ _ _ H) as (xs & X & F). pose proof (step_xfers_spec s o) as [X' _ _].
    rewrite X in X'. apply app_inv_head in X'.
    rewrite <- X'. exact F.
Qed.

(* the allow-list is not the bank *)
Lemma entries_same_bank id l s : same_bank s (fold_left (TxFacts.put_entry id) l s).
Proof. destruct (TxFacts.entries_put id l s) as (al & -> & _). split; reflexivity. Qed.
Lemma api_add_same_bank s id l s' : api_add s id l = Ok s' -> same_bank s s'.
Proof.
  intros H. apply TxFacts.api_add_iff in H. destruct H as (a0 & _ & _ & ->).
  exact (entries_same_bank _ _ (HookFacts.hooked s _ _)).
Qed.

(* the increase of what the bid is worth in the paying coin is sent after it *)
Lemma modify_xf_inv s u id bid_id a b price amt :
  Inv s -> find_auction s id = Some a -> find_bid s id bid_id = Some b -> a_type a = Batch ->
  TxFacts.modify_xf u id a b price (b_denom b) amt
  = send_xf (User u) (Escrow Paying id) (a_pay_denom a)
      (Z.max 0 (pay_amount (a_pay_denom a) (set_b_terms b price amt) - pay_amount (a_pay_denom a) b)).
Proof.
  intros I Ha Hb Ety. destruct (FrameFacts.find_bid_some _ _ _ _ Hb) as (Hin & Eau & _).
  destruct (inv_bids _ I) as [Hbw _]. rewrite Forall_forall in Hbw. specialize (Hbw b Hin).
  destruct (bwf_auction _ _ Hbw) as (a' & Ha' & Hty & _). rewrite Eau, Ha in Ha'. injection Ha' as <-.
  rewrite Ety in Hty. destruct Hty as [Hk _].
  destruct (FrameFacts.find_auction_some _ _ _ Ha) as [Hain _].
  pose proof (inv_auctions _ I) as Haw. red in Haw. rewrite Forall_forall in Haw.
  exact (TxFacts.modify_xf_pay u id a b price amt (awf_denoms _ (Haw a Hain)) Hk).
Qed.

Lemma modify_bid_xfers s u id bid_id price d amt s' :
  Inv s -> modify_bid s u id bid_id price d amt = Ok s' ->
  exists a b, find_auction s id = Some a /\ find_bid s id bid_id = Some b /\
    ledger_by s s' (send_xf (User u) (Escrow Paying id) (a_pay_denom a)
                      (Z.max 0 (pay_amount (a_pay_denom a) (set_b_terms b price amt) - pay_amount (a_pay_denom a) b))).
Proof.
  intros I H. apply TxFacts.modify_bid_iff in H.
  destruct H as (a & b & Ha & Hb & G & ->).
  exists a, b. split; [exact Ha|]. split; [exact Hb|]. pose proof (TxFacts.md_pays G) as Hp. destruct (TxFacts.md_denom G).
  rewrite <- (modify_xf_inv s u id bid_id a b price amt I Ha Hb (TxFacts.md_batch G)). apply (banked_ledger s _ _ Hp). split; reflexivity.
Qed.

Lemma handle_xfers s m c s' :
  Inv s -> check_basic m = Some c -> handle s c = Ok s' -> ledger_by s s' (tx_xfers s (OTx m)).
Proof.
  intros I Hc H. cbn [tx_xfers].
  rewrite Hc. destruct c as [| | |u id bt price d amt| | |]; cbn [handle] in H.
  - apply TxFacts.create_fixed_iff in H. destruct H as [G ->].
    apply (banked_ledger s _ _ (TxFacts.co_pays G)). split; reflexivity.
  - apply TxFacts.create_batch_iff in H. destruct H as [G ->].
    apply (banked_ledger s _ _ (TxFacts.co_pays G)). split; reflexivity.
  - apply TxFacts.cancel_iff in H. destruct H as (a0 & -> & G & ->).
    apply (banked_ledger s _ _ (TxFacts.cn_pays G)). split; reflexivity.
  - apply TxFacts.place_bid_iff in H. destruct H as (a0 & -> & G & ->).
    pose proof (TxFacts.pl_valid G) as V. pose proof (TxFacts.pl_pays G) as Hp. unfold TxFacts.place_post. rewrite (TxFacts.bid_xf_pay _ _ _ V) in *.
    apply (banked_ledger s _ _ Hp). split; reflexivity.
  - destruct (modify_bid_xfers _ _ _ _ _ _ _ _ I H) as (a0 & b0 & -> & -> & L). exact L.
  - destruct (st_switch s); [|discriminate]. exact (ledger_by_nil _ _ (api_add_same_bank _ _ _ _ H)).
  - apply ledger_by_nil. apply TxFacts.update_params_iff in H. destruct H as (cf & bf & _ & ->). split; reflexivity.
Qed.

Theorem step_accepted_ledger s o : Inv s -> fst (step s o) = Accepted -> ledger_by s (snd (step s o)) (tx_xfers s o).
Proof.
  intros I Hacc. destruct o as [m|a l|a u max|t orc|t orc k|from to d amt|ls|].
  { destruct (TxFacts.accepted_handle s m Hacc) as (c & Hc & H). exact (handle_xfers s m c _ I Hc H). }
  all: cbn [step] in *.
  - (* allow-list, added to *) apply TxFacts.commit_accepted in Hacc. exact (ledger_by_nil _ _ (api_add_same_bank _ _ _ _ Hacc)).
  - (* allow-list, updated *) apply TxFacts.commit_accepted in Hacc. apply ledger_by_nil.
    apply TxFacts.api_update_iff in Hacc. destruct Hacc as (m & _ & ->).
    rewrite FrameFacts.put_allowed_eq. split; reflexivity.
  - (* a block is never Accepted *) destruct (begin_block s t orc); discriminate.
  - destruct (begin_block s t orc) as [s'|]; [destruct (Nat.ltb _ _)|]; discriminate.
  - (* a plain send *) apply TxFacts.commit_accepted in Hacc.
    destruct (0 <? amt) eqn:Ea; [|discriminate]. apply Z.ltb_lt in Ea.
    apply yields_send in Hacc. destruct Hacc as [Hp ->]. cbn [tx_xfers].
    replace [mkx (User from) to d amt] with (send_xf (User from) to d amt); [exact (banked_ledger s _ _ Hp (same_bank_refl _))|].
    unfold send_xf. rewrite (proj2 (Z.eqb_neq amt 0)) by lia. reflexivity.
  - (* listeners, GENESIS: never Accepted *) discriminate.
  - destruct (genesis_roundtrip s) as [[v s']|]; discriminate.
Qed.

Corollary step_xfers_accepted s o : Inv s -> fst (step s o) = Accepted -> step_xfers s o = tx_xfers s o.
Proof.
  intros I H. eapply ledger_by_unique; [apply step_xfers_spec|apply step_accepted_ledger; assumption].
Qed.

Lemma accepted_iff o : accepted o = true <-> o = Accepted.
Proof. destruct o; cbn; split; intros H; try reflexivity; discriminate H. Qed.

Lemma class_of_KOk out : oclass_eqb (class_of out) KOk = accepted out.
Proof. destruct out; cbn; try reflexivity. destruct (N.eqb code E_PANIC); reflexivity. Qed.

Lemma out_of_tx_xfers s o u d : out_of (tx_xfers s o) u d = advertised s o u d.
Proof.
  destruct o as [m|a l|a v max|t orc|t orc k|from to d' amt|ls|]; cbn [tx_xfers advertised]; try apply out_of_nil.
  - destruct (check_basic m) as [c|]; [|apply out_of_nil]. destruct c; try apply out_of_nil.
    + (* create, fixed price *) apply out_of_fee_send.
    + (* create, batch *) apply out_of_fee_send.
    + (* cancel: the refund leaves an escrow *) destruct (find_auction s a) as [a0|]; [|apply out_of_nil].
      apply out_of_esc, Forall_send_xf. exists Selling, a. reflexivity.
    + (* place a bid *) destruct (find_auction s a) as [a0|]; [|apply out_of_nil]. apply out_of_fee_send.
    + (* modify a bid *) destruct (find_auction s a) as [a0|]; [|apply out_of_nil].
      destruct (find_bid s a b) as [b0|]; [|apply out_of_nil]. apply out_of_send_xf.
  - unfold out_of. rewrite sum_xfers_cons, sum_xfers_nil. cbn [mkx x_from x_denom x_amt addr_eqb].
    rewrite (N.eqb_sym from u), (N.eqb_sym d' d). destruct (_ && _); lia.
Qed.

Theorem step_charges s o : Inv s -> forall u d,
  sum_xfers (step_xfers s o) (fun x => addr_eqb (x_from x) (User u) && N.eqb (x_denom x) d)
  = if accepted (fst (step s o)) then advertised s o u d else 0.
Proof.
  intros I u d. fold (out_of (step_xfers s o) u d). destruct (accepted (fst (step s o))) eqn:Ha.
  - apply accepted_iff in Ha. rewrite (step_xfers_accepted s o I Ha). apply out_of_tx_xfers.
  - apply out_of_esc, step_not_accepted. intros E.
    rewrite E in Ha. discriminate Ha.
Qed.

(* destinations: the fee part goes to the community pool, the rest into the signer's own auction's escrow
   (the new auction's selling escrow / the bid's auction's paying escrow); OSend: where the sender says *)
Definition own_dest (s : state) (o : op) (x : xfer) : Prop :=
  match x_from x with
  | User _ =>
      x_to x = Pool \/
      match o with
      | OTx m =>
          match check_basic m with
          | Some (CCreateFixed _ _ _ _ _ _ _ _ _) | Some (CCreateBatch _ _ _ _ _ _ _ _ _ _ _ _) =>
              x_to x = Escrow Selling (st_aseq s)
          | Some (CPlaceBid _ id _ _ _ _) | Some (CModifyBid _ id _ _ _ _) => x_to x = Escrow Paying id
          | _ => False
          end
      | OSend _ to _ _ => x_to x = to
      | _ => False
      end
  | _ => True
  end.

(* The transfers of an accepted operation, by their ends: out of the signer's account to where own_dest allows, or the
   refund of a cancellation out of the selling escrow.  Every property of single transfers of tx_xfers is read off this. *)
Lemma tx_xfers_ends (Q : xfer -> Prop) s o :
  (forall v t d a, own_dest s o (mkx (User v) t d a) -> Q (mkx (User v) t d a)) ->
  (forall id u d a, Q (mkx (Escrow Selling id) (User u) d a)) ->
  Forall Q (tx_xfers s o).
Proof.
  intros HU HE.
  assert (Fee : forall v cs, Forall Q (coin_xfers (User v) Pool cs))
    by (intros v cs; apply Forall_coin_xfers; intros d a; apply HU; left; reflexivity).
  (* the reservation goes where own_dest says for this operation *)
  assert (Res : forall v t d a, own_dest s o (mkx (User v) t d a) -> Forall Q (send_xf (User v) t d a))
    by (intros v t d a H; apply Forall_send_xf, HU, H).
  destruct o as [m|a l|a v max|t orc|t orc k|from to d' amt|ls|]; cbn [tx_xfers]; try constructor.
  - destruct (check_basic m) as [c|] eqn:Hc; [|constructor].
    assert (Own : forall v t d a, match c with
                    | CCreateFixed _ _ _ _ _ _ _ _ _ | CCreateBatch _ _ _ _ _ _ _ _ _ _ _ _ => t = Escrow Selling (st_aseq s)
                    | CPlaceBid _ id _ _ _ _ | CModifyBid _ id _ _ _ _ => t = Escrow Paying id
                    | _ => False end -> own_dest s (OTx m) (mkx (User v) t d a))
      by (intros v t d a H; unfold own_dest; cbn [mkx x_from x_to]; rewrite Hc; right; exact H).
    destruct c; try constructor.
    + (* create, fixed price *) apply Forall_app. split; [apply Fee|apply Res, Own; reflexivity].
    + (* create, batch *) apply Forall_app. split; [apply Fee|apply Res, Own; reflexivity].
    + (* cancel *) destruct (find_auction s a) as [a0|]; [|constructor]. apply Forall_send_xf, HE.
    + (* place a bid *) destruct (find_auction s a) as [a0|]; [|constructor].
      apply Forall_app. split; [apply Fee|apply Res, Own; reflexivity].
    + (* modify a bid *) destruct (find_auction s a) as [a0|]; [|constructor]. destruct (find_bid s a b) as [b0|]; [|constructor].
      apply Res, Own. reflexivity.
  - (* a plain send *) apply HU. right. reflexivity.
  - constructor.
Qed.

Theorem tx_xfers_dest s o : Forall (own_dest s o) (tx_xfers s o).
Proof. apply tx_xfers_ends; [intros v t d a H; exact H|intros id u d a; exact I]. Qed.

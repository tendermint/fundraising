(* Checker link for C18: Checkers.c18_ok holds of every transition of the model from a state satisfying the invariant. *)
From Coq Require Import ZArith NArith List Bool.
From FR Require Import Types Model Spec Checkers.
From FR.Proofs Require Import InvDefs FixedFacts.
From FR.Proofs Require EqbFacts TxFacts PrecondFacts ChkSettle.
Import ListNotations.
Open Scope Z_scope.

Lemma btype_eqb_refl x : btype_eqb x x = true. Proof. exact (EqbFacts.btype_eqb_refl x). Qed.

Theorem c18_ok_model s o : Inv s -> c18_ok (model_trans s o) = true.
Proof.
  intros I. rewrite model_trans_eq. cbv zeta. unfold c18_ok. cbn [t_post t_pre t_op t_class t_xfers].
  destruct o as [m| | | | | | |]; try reflexivity.
  apply andb_true_iff. split; [exact (class_ok_precond s m I)|].
  destruct (oclass_eqb (class_of _) KRej) eqn:Ek; [|reflexivity].
  apply class_rej_iff in Ek. destruct Ek as [c Ek].
  assert (Hg : OTx m <> OGenesis) by discriminate.
  pose proof (TxFacts.step_shape (ghost_reset s) (OTx m) eq_refl Hg) as Sh. rewrite Ek in Sh.
  destruct (TxFacts.tx_rejected _ _ _ _ Sh) as [tr ->].
  (* only the trace differs *)
  rewrite EqbFacts.module_state_eqb_intro, EqbFacts.balances_eqb_same;
    auto using EqbFacts.same_bids_refl, EqbFacts.same_allowed_refl, EqbFacts.same_vqs_refl.
Qed.

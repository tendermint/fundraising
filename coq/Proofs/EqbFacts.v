(* role_eqb, status_eqb, atype_eqb and addr_eqb of Types.v decide equality (_eq); btype_eqb and the equalities of
   Checkers.v on lists, records and states are only shown to hold of equal arguments (_refl), the two on whole states
   from the equalities of the fields they read (module_state_eqb_intro, balances_eqb_same). *)
From Coq Require Import ZArith NArith List Bool Arith.
From FR Require Import Types Checkers.
Import ListNotations.
Open Scope Z_scope.

Lemma role_eqb_eq x y : role_eqb x y = true <-> x = y.
Proof. destruct x, y; cbn; split; intros H; try reflexivity; discriminate H. Qed.

Lemma status_eqb_eq x y : status_eqb x y = true <-> x = y.
Proof. destruct x, y; cbn; split; intros H; try reflexivity; discriminate H. Qed.

Lemma atype_eqb_eq x y : atype_eqb x y = true <-> x = y.
Proof. destruct x, y; cbn; split; intros H; try reflexivity; discriminate H. Qed.

Lemma addr_eqb_eq x y : addr_eqb x y = true <-> x = y.
Proof.
  destruct x as [u|r a|], y as [v|q b|]; cbn [addr_eqb]; try (split; discriminate).
  - rewrite N.eqb_eq. split; congruence.
  - rewrite andb_true_iff, role_eqb_eq, N.eqb_eq. split; [intros [-> ->]; reflexivity|intros E; injection E; auto].
  - split; reflexivity.
Qed.

Lemma addr_eqb_refl x : addr_eqb x x = true.
Proof. apply addr_eqb_eq. reflexivity. Qed.

Lemma addr_eqb_neq x y : addr_eqb x y = false <-> x <> y.
Proof.
  split; intros H.
  - intros E. apply addr_eqb_eq in E. congruence.
  - destruct (addr_eqb x y) eqn:E; [apply addr_eqb_eq in E; contradiction | reflexivity].
Qed.

Lemma addr_eqb_sym x y : addr_eqb x y = addr_eqb y x.
Proof.
  destruct x as [u|r a|], y as [v|q b|]; cbn [addr_eqb]; try reflexivity; [apply N.eqb_sym|].
  rewrite (N.eqb_sym a b). destruct r, q; reflexivity.
Qed.

Lemma status_eqb_refl x : status_eqb x x = true.
Proof. destruct x; reflexivity. Qed.

Lemma atype_eqb_refl x : atype_eqb x x = true.
Proof. destruct x; reflexivity. Qed.

Lemma btype_eqb_refl x : btype_eqb x x = true.
Proof. destruct x; reflexivity. Qed.

Lemma list_eqb_refl {A} (eqb : A -> A -> bool) (l : list A) :
  (forall x, In x l -> eqb x x = true) -> list_eqb eqb l l = true.
Proof.
  induction l as [|x l IH]; intros H; cbn [list_eqb]; [reflexivity|].
  rewrite (H x (or_introl eq_refl)). apply IH. intros y Hy. apply H. right. exact Hy.
Qed.

Lemma list_eqb_app {A} (eqb : A -> A -> bool) l1 l2 : forall r1 r2,
  list_eqb eqb l1 r1 = true -> list_eqb eqb l2 r2 = true -> list_eqb eqb (l1 ++ l2) (r1 ++ r2) = true.
Proof.
  induction l1 as [|x l1 IH]; intros r1 r2 H1 H2; destruct r1 as [|y r1]; cbn [list_eqb app] in *; try discriminate H1.
  - exact H2.
  - apply andb_true_iff in H1. destruct H1 as [Hx H1]. rewrite Hx. cbn [andb]. apply IH; assumption.
Qed.

Lemma list_eqb_Z_refl l : list_eqb Z.eqb l l = true.
Proof. apply list_eqb_refl. intros x _. apply Z.eqb_refl. Qed.

Lemma list_eqb_N_refl l : list_eqb N.eqb l l = true.
Proof. apply list_eqb_refl. intros x _. apply N.eqb_refl. Qed.

Lemma zeqb_list_refl l : zeqb_list l l = true.
Proof.
  unfold zeqb_list. rewrite Nat.eqb_refl. cbn [andb].
  induction l as [|x l IH]; cbn [combine forallb fst snd]; [reflexivity|]. rewrite Z.eqb_refl. exact IH.
Qed.

Lemma sched_eqb_refl x : sched_eqb x x = true.
Proof. unfold sched_eqb. rewrite !Z.eqb_refl. reflexivity. Qed.

Lemma auction_terms_eqb_refl a : auction_terms_eqb a a = true.
Proof.
  unfold auction_terms_eqb. rewrite !N.eqb_refl, !Z.eqb_refl, atype_eqb_refl, Bool.eqb_reflx.
  rewrite (list_eqb_refl sched_eqb) by (intros; apply sched_eqb_refl). reflexivity.
Qed.

Lemma auction_eqb_refl a : auction_eqb a a = true.
Proof.
  unfold auction_eqb. rewrite auction_terms_eqb_refl, status_eqb_refl, !Z.eqb_refl, list_eqb_Z_refl. reflexivity.
Qed.

Lemma bid_eqb_refl b : bid_eqb b b = true.
Proof. unfold bid_eqb. rewrite !N.eqb_refl, !Z.eqb_refl, btype_eqb_refl, Bool.eqb_reflx. reflexivity. Qed.

Lemma allowed_eqb_refl x : allowed_eqb x x = true.
Proof. unfold allowed_eqb. rewrite !N.eqb_refl, Z.eqb_refl. reflexivity. Qed.

Lemma vq_eqb_refl x : vq_eqb x x = true.
Proof. unfold vq_eqb. rewrite !N.eqb_refl, !Z.eqb_refl, Bool.eqb_reflx. reflexivity. Qed.

Lemma coins_eqb_refl c : coins_eqb c c = true.
Proof. unfold coins_eqb. apply list_eqb_refl. intros x _. rewrite N.eqb_refl, Z.eqb_refl. reflexivity. Qed.

Lemma oclass_eqb_refl c : oclass_eqb c c = true.
Proof. destruct c; reflexivity. Qed.

Lemma optZ_eqb_refl x : optZ_eqb x x = true.
Proof. destruct x; cbn; [apply Z.eqb_refl|reflexivity]. Qed.

Lemma same_bids_refl l : same_bids l l = true.
Proof. unfold same_bids. apply list_eqb_refl. intros; apply bid_eqb_refl. Qed.
Lemma same_allowed_refl l : same_allowed l l = true.
Proof. unfold same_allowed. apply list_eqb_refl. intros; apply allowed_eqb_refl. Qed.
Lemma same_vqs_refl l : same_vqs l l = true.
Proof. unfold same_vqs. apply list_eqb_refl. intros; apply vq_eqb_refl. Qed.
Lemma auctions_eqb_refl l : list_eqb auction_eqb l l = true.
Proof. apply list_eqb_refl. intros; apply auction_eqb_refl. Qed.

(* two states with the same module records: the collections as sets, the counters pointwise *)
Lemma module_state_eqb_intro s1 s2 :
  st_params s2 = st_params s1 -> st_auctions s2 = st_auctions s1 ->
  same_bids (st_bids s1) (st_bids s2) = true -> same_allowed (st_allowed s1) (st_allowed s2) = true ->
  same_vqs (st_vqs s1) (st_vqs s2) = true -> st_aseq s2 = st_aseq s1 ->
  (forall a, st_bseq s2 a = st_bseq s1 a) -> (forall a, st_mlen s2 a = st_mlen s1 a) ->
  module_state_eqb s1 s2 = true.
Proof.
  intros Hp Ha Hb Hal Hv Hs Hbs Hm. unfold module_state_eqb.
  rewrite Hp, Ha, Hb, Hal, Hv, Hs, auctions_eqb_refl, N.eqb_refl, !coins_eqb_refl, Z.eqb_refl.
  cbn [andb]. rewrite !andb_true_r.
  apply forallb_forall. intros a _. rewrite Hbs, Hm, N.eqb_refl, Z.eqb_refl. reflexivity.
Qed.

Lemma balances_eqb_same s1 s2 : st_bal s2 = st_bal s1 -> balances_eqb s1 s2 = true.
Proof.
  intros Hb. unfold balances_eqb. rewrite Hb.
  apply forallb_forall. intros a _. apply forallb_forall. intros d _. apply Z.eqb_refl.
Qed.

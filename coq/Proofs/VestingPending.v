(* C08: vesting_pending (J12 of DESIGN.md; stated beside Inv, not a field of it): every auction with status VestingS has a non-empty vesting queue whose last entry is
   not yet released.  It is preserved by every operation, given the global invariant Inv, hence holds in every
   reachable state: no auction stays in VestingS once its last instalment is released.  The converse, Finished =>
   every entry released, is part of vqs_wf; vesting_status_iff puts the two together.  pending_ok_model: the executable
   form Checkers.pending_ok holds of the post-state of every model transition. *)
From Coq Require Import ZArith NArith List Bool.
From FR Require Import Types Match Step Genesis Model Checkers.
From FR.Proofs Require Import InvDefs FrameFacts TxFacts BlockFacts BlockWalk.
From FR.Proofs Require VestingFacts VestingInv GenesisImport DecFacts.
From FR.Proofs Require Import InvAll FixedFacts.
Import ListNotations.
Open Scope Z_scope.

Definition last_unreleased (vs : list vq) : Prop :=
  exists l v, vs = l ++ [v] /\ v_released v = false.

Definition vesting_pending (s : state) : Prop :=
  forall a, In a (st_auctions s) -> a_status a = VestingS -> last_unreleased (vqs_of s (a_id a)).

Lemma vesting_pending_ext s s' :
  st_auctions s' = st_auctions s -> st_vqs s' = st_vqs s -> vesting_pending s -> vesting_pending s'.
Proof. intros Ha Hv H a Hin St. unfold vqs_of. rewrite Hv. rewrite Ha in Hin. apply (H a Hin St). Qed.

Lemma split_last_unreleased a R vs : vs <> [] -> last_unreleased (split a R R vs).
Proof.
  intros Hne. pose proof (DecFacts.split_fields a R vs R) as Hf. rewrite Forall_forall in Hf.
  assert (Hlen : split a R R vs <> []).
  { destruct vs as [|v r]; [contradiction|]. cbn [split]. discriminate. }
  destruct (exists_last Hlen) as (l & v & E). exists l, v. split; [exact E|].
  destruct (Hf v) as (Hr & _); [rewrite E; apply in_or_app; right; now left|exact Hr].
Qed.

Lemma release_last_unreleased id t vs :
  last_unreleased vs -> last_due_rec t vs = false ->
  last_unreleased (map (VestingFacts.release_vq id t) vs).
Proof.
  intros (l & v & -> & Hr) Hd. exists (map (VestingFacts.release_vq id t) l), (VestingFacts.release_vq id t v).
  split; [rewrite map_app; reflexivity|].
  assert (Hdv : vq_due t v = false).
  { clear -Hd. induction l as [|x l IH]; cbn [app last_due_rec] in Hd; [exact Hd|].
    destruct (l ++ [v]) eqn:E; [destruct l; discriminate E|]. apply IH. exact Hd. }
  unfold VestingFacts.release_vq. rewrite Hdv, andb_false_r. exact Hr.
Qed.

Lemma settle_last_unreleased t s a mi wr :
  vqs_of s (a_id a) = [] -> settled_st a = VestingS ->
  last_unreleased (vqs_of (act_state t s a (ASettle mi wr)) (a_id a)).
Proof.
  intros Hvq0 St. cbn [act_state]. rewrite settled_own_vqs, Hvq0, VestingInv.new_vqs_split.
  apply split_last_unreleased. unfold settled_st in St. destruct (a_scheds a); discriminate.
Qed.

Lemma process_vesting_pending t orc s a s' :
  Inv s -> vesting_pending s -> In a (st_auctions s) -> process t orc s a = Ok s' -> vesting_pending s'.
Proof.
  intros I VP Ha H x Hx Stx.
  pose proof (Inv_find_in s a I Ha) as Fa.
  pose proof (Inv_find_in s' x (Inv_process t orc s a s' I Ha H) Hx) as Fx.
  apply process_iff in H. destruct H as (y & C & P & ->).
  destruct (N.eq_dec (a_id x) (a_id a)) as [E|Hne].
  - (* the processed auction itself *)
    rewrite E, (act_find t s a y Fa) in Fx. injection Fx as <-. rewrite E. clear E.
    assert (Hvq0 : a_status a = Started -> vqs_of s (a_id a) = []).
    { intros St. apply (VestingInv.vqs_wf_no_queue s _ a (inv_vqs _ I) Fa), (VestingInv.not_vest_status _ _ St); discriminate. }
    destruct C as [C|St L|St L Ty|mi St L Ty M|St]; cbn [act_record act_state] in *.
    + revert C. destruct (a_status a); try discriminate; contradiction.
    + discriminate.
    + exact (settle_last_unreleased t s a _ false (Hvq0 St) Stx).
    + destruct (decision s a mi); cbn [act_record act_state] in *.
      * unfold extended in Stx. cbn [a_status set_ends set_matched_price] in Stx. congruence.
      * exact (settle_last_unreleased t s a mi true (Hvq0 St) Stx).
    + (* release: the last entry is flagged only if it is due, and then the auction is finished *)
      rewrite (VestingFacts.released_vqs_of s a t _ (VestingInv.vqs_wf_nodup s (inv_vqs _ I))), N.eqb_refl. rewrite last_due_eq in Stx.
      destruct (last_due_rec t (vqs_of s (a_id a))) eqn:LD; [cbn in Stx; discriminate|].
      apply release_last_unreleased; [apply (VP a Ha St)|exact LD].
  - (* another auction: untouched *)
    pose proof (pe_frame _ _ _ (act_eff t s a y) (a_id x) Hne) as Sl. rewrite (se_auction _ _ _ Sl) in Fx.
    rewrite (se_vqs _ _ _ Sl). apply VP; [apply (find_auction_some _ _ _ Fx)|exact Stx].
Qed.

Lemma tx_vesting_pending s o :
  Inv s -> vesting_pending s -> is_block o = false -> o <> OGenesis -> vesting_pending (snd (step s o)).
Proof.
  intros I VP B Hg x Hx Stx. pose proof (step_shape s o B Hg) as Sh.
  pose proof (Inv_find_in _ x (Inv_step s o I) Hx) as Fx.
  apply (VestingInv.tx_vest_back _ _ _ _ _ _ Sh) in Fx; [|left; exact Stx].
  unfold vqs_of. rewrite (TxFacts.tx_vqs _ _ _ _ Sh).
  apply (VP x (proj1 (find_auction_some _ _ _ Fx)) Stx).
Qed.

Lemma vesting_pending_kept : carried vesting_pending.
Proof.
  split.
  - intros s t tr _. apply vesting_pending_ext; reflexivity.
  - intros s o I B Hg VP. apply tx_vesting_pending; assumption.
  - intros t orc s a s' I Ha H VP. exact (process_vesting_pending t orc s a s' I VP Ha H).
  - intros s s' _ SS VP x Hx Stx. rewrite (GenesisImport.ss_vqs_of _ _ SS).
    rewrite (GenesisImport.ss_auctions _ _ SS) in Hx. apply (VP x Hx Stx).
Qed.

Theorem vesting_pending_step s o : Inv s -> vesting_pending s -> vesting_pending (snd (step s o)).
Proof. apply carried_step, vesting_pending_kept. Qed.

Theorem vesting_pending_reachable bal now sw p ops :
  (forall x d, 0 <= bal x d) -> coins_ok (p_cfee p) None = true -> coins_ok (p_bfee p) None = true ->
  vesting_pending (run (init_state bal now sw p) ops).
Proof. intros Hb H1 H2. apply (carried_reachable _ vesting_pending_kept); try assumption. intros a []. Qed.

Corollary vesting_status_iff s a :
  Inv s -> vesting_pending s -> In a (st_auctions s) -> a_scheds a <> [] ->
  VestingInv.vest_status a ->
  (a_status a = Finished <-> forall v, In v (vqs_of s (a_id a)) -> v_released v = true).
Proof.
  intros I VP Ha Hsc Hst. split.
  - intros Hf v Hv. exact (VestingInv.vo_released (VestingInv.vqs_wf_own s _ a v (inv_vqs _ I) (Inv_find_in s a I Ha) Hv) Hf).
  - intros Hall. destruct Hst as [Hv|Hf]; [|exact Hf]. exfalso.
    destruct (VP a Ha Hv) as (l & v & E & Hr).
    assert (Hin : In v (vqs_of s (a_id a))) by (rewrite E; apply in_or_app; right; now left).
    rewrite (Hall v Hin) in Hr. discriminate.
Qed.

Lemma pending_ok_of s : vesting_pending s -> pending_ok s = true.
Proof.
  intros VP. unfold pending_ok. apply forallb_forall. intros a Ha.
  destruct (status_eqb (a_status a) VestingS) eqn:E; [|reflexivity].
  apply EqbFacts.status_eqb_eq in E.
  destruct (VP a Ha E) as (l & v & -> & Hr). rewrite rev_app_distr. cbn [rev app].
  rewrite Hr. reflexivity.
Qed.

Theorem pending_ok_model s o : Inv s -> vesting_pending s -> pending_ok (t_post (model_trans s o)) = true.
Proof.
  intros I VP. rewrite model_trans_eq. cbv zeta.
  cbn [t_post]. apply pending_ok_of.
  apply vesting_pending_step; [exact (Inv_ghost_reset s I)|].
  apply (vesting_pending_ext s); [reflexivity|reflexivity|exact VP].
Qed.

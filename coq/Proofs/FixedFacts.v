(* C06: fixed price auctions sell first come first served against an exact remainder.
   - Inv gives the well-formedness WF that the acceptance theorems of PrecondFacts.v assume (Inv_WF), so the exact
     acceptance condition holds in every reachable state;
   - the published remainder is exact in every reachable state (remaining_exact: Checkers.remaining_ok holds);
   - the bids of a fixed price auction are only ever appended to: no operation removes, reorders or rewrites one;
   - the executable statement c06_ok holds of every model transition.
   Here also, because Checkers.model_trans is defined over ghost_reset and every link file imports this one: the way every
   checker link enters (section "the transition the checkers judge"). *)
From Coq Require Import ZArith NArith List Bool Lia.
From FR Require Import Types Match Step Model Spec Checkers.
From FR.Proofs Require Import InvDefs FrameFacts TxFacts BlockFacts BlockWalk InvStaticBase.
From FR.Proofs Require PrecondBase PrecondFacts GenesisImport GenesisFacts LifeTheorems PublishStable.
From FR.Proofs Require Import EscrowBlock InvAll LedgerSettle.
From FR.Proofs Require EqbFacts LedgerCharges.
Import ListNotations.
Open Scope Z_scope.

Lemma Inv_WF s : Inv s -> PrecondFacts.WF s.
Proof.
  intros I. split.
  - apply (inv_escrow _ I).
  - intros c Hc. destruct (inv_params _ I) as [H _].
    pose proof (PrecondBase.coins_ok_pos _ _ H c Hc). lia.
  - intros c Hc. destruct (inv_params _ I) as [_ H].
    pose proof (PrecondBase.coins_ok_pos _ _ H c Hc). lia.
  - intros b a Hb Fa Hty. destruct (inv_bids _ I) as [W _]. rewrite Forall_forall in W.
    destruct (bwf_auction _ _ (W b Hb)) as (a0 & Fa0 & Hm & _). rewrite Fa in Fa0. injection Fa0 as <-.
    rewrite Hty in Hm. apply Hm.
  - intros a Ha. pose proof (inv_auctions _ I) as W.
    unfold auctions_wf in W. rewrite Forall_forall in W.
    apply (awf_denoms _ (W a Ha)).
Qed.

Lemma Inv_bids_pos s : Inv s -> PrecondFacts.bids_pos s.
Proof.
  intros I b Hb. destruct (inv_bids _ I) as [W _]. rewrite Forall_forall in W.
  split; [apply (bwf_price _ _ (W b Hb))|apply (bwf_amt _ _ (W b Hb))].
Qed.

(* ------------------------------------------------------------------ the transition the checkers judge
   Checkers.model_trans s o runs the step of the model from ghost_reset s - s with the ghost log of transfers and the hook
   trace emptied - and records the outcome by its class, the two logs and the state afterwards.  Every checker link
   `Inv s -> cNN (model_trans s o) = true` enters in the same way:
       rewrite model_trans_eq. cbv zeta. unfold cNN. cbn [t_pre t_post t_op t_class t_xfers t_trace].
   The goal then speaks of fst / snd (step (ghost_reset s) o), which is how every lemma about a step is stated, and
   Inv_ghost_reset gives the invariant there.  For a clause that is added to a checker, start from: the class of the
   outcome, class_ok_iff, class_rej_iff, class_blockok_iff (class_KOk after `destruct (class_of _) eqn`); a clause
   `Bool.eqb (the class is ok) p`, class_ok_eqb, for a message with p = Spec.precond class_ok_precond; the record of an
   auction of s afterwards, model_pair (what LifeTheorems.astep allows); its log and balance changes, model_xfers,
   model_delta; one auction in a block, ChkSettle.block_view_holds. *)
Definition ghost_reset (s : state) : state := with_trace (with_bank s (st_bal s) []) [].
Lemma Inv_ghost_reset s : Inv s -> Inv (ghost_reset s).
Proof. apply Inv_ext; reflexivity. Qed.

Lemma model_trans_eq s o :
  model_trans s o =
  let r := step (ghost_reset s) o in
  {| t_pre := s; t_op := o; t_class := class_of (fst r); t_xfers := st_xfers (snd r); t_trace := st_trace (snd r);
     t_post := snd r;
     t_fault := match fst r, o with BlockErr c, OFaultBlock _ _ _ => N.eqb c E_FAULT | _, _ => false end;
     t_gen_valid := match fst r with GenOk v => v | _ => false end |}.
Proof. unfold model_trans, ghost_reset. destruct (step _ o) as [out s']. reflexivity. Qed.

Lemma model_pre s o : t_pre (model_trans s o) = s.
Proof. rewrite model_trans_eq. reflexivity. Qed.

(* its log is what the step books, and its balance changes are the net of that list *)
Lemma model_xfers s o : t_xfers (model_trans s o) = Ledger.step_xfers (ghost_reset s) o.
Proof. rewrite model_trans_eq. exact (Ledger.lb_xfers _ _ _ (LedgerCharges.step_xfers_spec (ghost_reset s) o)). Qed.

Lemma model_delta s o a d : delta (model_trans s o) a d = net (t_xfers (model_trans s o)) a d.
Proof. unfold delta. rewrite model_xfers, model_trans_eq. exact (LedgerCharges.step_delta_is_net (ghost_reset s) o a d). Qed.

Lemma class_ok_iff out : oclass_eqb (class_of out) KOk = true <-> out = Accepted.
Proof.
  destruct out as [|c| |c|v| |]; cbn; split; intros H; try reflexivity; try discriminate H.
  destruct (N.eqb c E_PANIC); discriminate H.
Qed.
Lemma class_KOk out : class_of out = KOk -> out = Accepted.
Proof. intros H. apply class_ok_iff. rewrite H. reflexivity. Qed.

Lemma class_rej_iff out : oclass_eqb (class_of out) KRej = true <-> exists c, out = Rejected c.
Proof.
  split.
  - intros H. destruct out as [|c| |c|v| |]; cbn [class_of] in H; try discriminate H.
    + exists c. reflexivity.
    + destruct (N.eqb c E_PANIC); discriminate H.
  - intros [c ->]. reflexivity.
Qed.

Lemma class_blockok_iff out : oclass_eqb (class_of out) KBlockOk = true <-> out = BlockOk.
Proof.
  destruct out as [|c| |c|v| |]; cbn; split; intros H; try reflexivity; try discriminate H.
  destruct (N.eqb c E_PANIC); discriminate H.
Qed.
Lemma class_of_err c : oclass_eqb (class_of (BlockErr c)) KBlockOk = false.
Proof. cbn. destruct (N.eqb c E_PANIC); reflexivity. Qed.

Lemma class_ok_eqb out (p : bool) :
  (out = Accepted <-> p = true) -> Bool.eqb (oclass_eqb (class_of out) KOk) p = true.
Proof.
  intros H. destruct p.
  - rewrite (proj2 H eq_refl). reflexivity.
  - destruct (oclass_eqb (class_of out) KOk) eqn:Ek; [|reflexivity].
    apply class_ok_iff in Ek. apply H in Ek. discriminate Ek.
Qed.

(* the acceptance clause that c06_ok, c11_ok, c12_ok and c18_ok share: a message is accepted exactly under Spec.precond *)
Lemma class_ok_precond s m :
  Inv s -> Bool.eqb (oclass_eqb (class_of (fst (step (ghost_reset s) (OTx m)))) KOk) (precond s m) = true.
Proof.
  intros I. apply class_ok_eqb. exact (PrecondFacts.C18_exact_proof (ghost_reset s) m (Inv_WF _ (Inv_ghost_reset s I))).
Qed.

(* what the step did to the record of an auction of s *)
Lemma model_pair s o a a' :
  Inv s -> In a (st_auctions s) -> find_auction (snd (step (ghost_reset s) o)) (a_id a) = Some a' ->
  LifeTheorems.astep (ghost_reset s) o a a'.
Proof.
  intros I Ha F'.
  destruct (GenesisFacts.step_astep (ghost_reset s) o (a_id a) a (or_introl (inv_ids _ (Inv_ghost_reset s I)))
              (Inv_find_in s a I Ha)) as (a2 & F2 & R).
  congruence.
Qed.

Theorem fixed_rejects_other_types s who id bt price coin a :
  find_auction s id = Some a -> a_type a = FixedPrice -> bt <> 1%N ->
  fst (step s (OTx (MPlaceBid who id bt price coin))) <> Accepted.
Proof.
  intros Fa Hty Hbt Hacc.
  destruct (tx_place_inv (step_shape_acc _ _ Hacc)) as (up & u & t & p & d & amt & a1 & _ & CB & Fa1 & G & _).
  pose proof (pl_valid G) as V. rewrite Fa in Fa1. injection Fa1 as <-. pose proof (check_basic_place CB) as Dt.
  (* a bid of a batch type is valid on a batch auction only *)
  destruct t; cbn [bid_valid new_bid b_type] in V.
  - apply Hbt. destruct bt as [|[p0|p0|]]; try discriminate Dt; try reflexivity; destruct p0; discriminate Dt.
  - destruct V as (Tb & _). congruence.
  - destruct V as (Tb & _). congruence.
Qed.

Theorem remaining_exact s : Inv s -> remaining_ok s = true.
Proof.
  intros I. unfold remaining_ok.
  apply forallb_forall. intros a Ha.
  destruct (a_type a) eqn:Ty; [|reflexivity].
  pose proof (inv_remaining _ I a Ha Ty) as R.
  pose proof (inv_auctions _ I) as W. unfold auctions_wf in W. rewrite Forall_forall in W.
  destruct (awf_fixed _ (W a Ha) Ty) as (_ & _ & _ & _ & Hr).
  destruct (status_eqb (a_status a) Cancelled).
  - apply Z.eqb_eq. exact R.
  - apply andb_true_iff. split; [apply Z.eqb_eq; exact R|apply Z.leb_le; lia].
Qed.

Definition fixed_appended (s s' : state) : Prop :=
  forall id a, find_auction s id = Some a -> a_type a = FixedPrice ->
    (exists l, bids_of s' id = bids_of s id ++ l)
    /\ exists a', find_auction s' id = Some a' /\ a_type a' = FixedPrice.

Lemma fixed_appended_refl s : fixed_appended s s.
Proof. intros id a Fa Ty. split; [exists []; symmetry; apply app_nil_r|exists a; auto]. Qed.

Lemma fixed_appended_trans s1 s2 s3 : fixed_appended s1 s2 -> fixed_appended s2 s3 -> fixed_appended s1 s3.
Proof.
  intros H1 H2 id a Fa Ty. destruct (H1 id a Fa Ty) as [[l1 E1] (a2 & Fa2 & Ty2)].
  destruct (H2 id a2 Fa2 Ty2) as [[l2 E2] K]. split; [|exact K].
  exists (l1 ++ l2). rewrite E2, E1.
  symmetry. apply app_assoc.
Qed.

(* PublishStable.fixed_bids_stable says which bid an operation appends; here only that the stored ones stay in place *)
Theorem fixed_bids_append_only s o : Inv s -> fixed_appended s (snd (step s o)).
Proof.
  intros I id a Fa Ty. destruct (op_eq_genesis_dec o) as [->|Hg].
  - destruct (GenesisImport.genesis_step s I) as (s' & Hs & SS). rewrite Hs. cbn [snd]. split.
    + exists []. rewrite app_nil_r. apply (GenesisImport.ss_bids_of _ _ SS).
    + exists a. split; [|exact Ty]. unfold find_auction in *. rewrite (GenesisImport.ss_auctions _ _ SS). exact Fa.
  - pose proof (Inv_ids_ok s I) as OK. split.
    + destruct (PublishStable.fixed_bids_stable s o id a OK Hg Fa Ty) as [E|(nb & E & _)];
        [exists []; rewrite app_nil_r|exists [nb]]; exact E.
    + destruct (LifeTheorems.step_terms s o id a OK Hg Fa) as (a' & Fa' & Tm & _).
      exists a'. split; [exact Fa'|]. rewrite (LifeTheorems.terms0_type _ _ Tm). exact Ty.
Qed.

Corollary fixed_bid_kept s o b :
  Inv s -> In b (st_bids s) -> b_type b = BFixed -> In b (st_bids (snd (step s o))).
Proof.
  intros I Hb Hty. destruct (inv_bids _ I) as [W _]. rewrite Forall_forall in W.
  destruct (bwf_auction _ _ (W b Hb)) as (a & Fa & Hm & _).
  assert (Ty : a_type a = FixedPrice).
  { destruct (a_type a); [reflexivity|]. destruct Hm as [[[Hc _]|[Hc _]] _]; congruence. }
  destruct (fixed_bids_append_only s o I _ a Fa Ty) as [[l E] _].
  assert (Hin : In b (bids_of (snd (step s o)) (b_auction b))).
  { rewrite E. apply in_or_app. left.
    apply bids_of_in. auto. }
  apply bids_of_in in Hin. apply Hin.
Qed.

Theorem c06_ok_model s o : Inv s -> c06_ok (model_trans s o) = true.
Proof.
  intros I. pose proof (Inv_ghost_reset s I) as I0.
  rewrite model_trans_eq. cbv zeta.
  unfold c06_ok. cbn [t_post t_pre t_op t_class].
  apply andb_true_iff. split; [apply andb_true_iff; split|].
  - apply remaining_exact, Inv_step, I0.
  - destruct o as [m| | | | | | |]; try reflexivity.
    destruct (check_basic m) as [c|] eqn:CB; [|reflexivity].
    destruct c as [| | |u id bt price d amt| | |]; try reflexivity.
    destruct bt; try reflexivity.
    destruct (find_auction s id) as [a|] eqn:Fa; [|reflexivity].
    destruct (a_type a) eqn:Ty; [|reflexivity].
    pose proof (class_ok_precond s m I) as Hacc. unfold precond in Hacc. rewrite CB in Hacc. exact Hacc.
  - apply forallb_forall. intros b Hb. destruct (b_type b) eqn:Tb; try reflexivity.
    apply existsb_exists. exists b. split; [|apply EqbFacts.bid_eqb_refl].
    apply fixed_bid_kept; [exact I0|exact Hb|exact Tb].
Qed.

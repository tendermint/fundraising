(* The static parts of the global invariant (InvDefs J1-J4, J9-J11) as one record InvS, and ceq: agreement on the
   fields InvS reads, so that whatever touches only bank, trace, time or listeners preserves it.  Then what the proofs
   about InvS compute with: the ids 0 .. n-1 (ids_upto_succ and after), counting flagged bids (count_mem, count_matched_of and after), looking a
   stored record up under InvS (InvS_find, InvS_find_lt, InvS_find_wf), and J11 for the vesting queues as a bound on their auction ids
   (vqs_fresh_iff). *)
From Coq Require Import ZArith NArith List Arith Lia Permutation.
From FR Require Import Types Bank Genesis Spec.
From FR.Proofs Require HookBase.
From FR.Proofs Require Import ListFacts FrameFacts InvDefs.
Import ListNotations.
Open Scope Z_scope.

Record InvS (s : state) : Prop := {
  is_ids : ids_seq s;
  is_auctions : auctions_wf s;
  is_bids : bids_wf s;
  is_allowed : allowed_wf s;
  is_mlen : mlen_inv s;
  is_params : params_wf s;
  is_fresh : fresh_inv s }.

(* J11 by clause: an id not yet given out has nothing stored under it; a waiting or cancelled auction has no bids *)
Lemma fresh_free s : fresh_inv s -> forall id, (st_aseq s <= id)%N ->
  st_bseq s id = 0%N /\ bids_of s id = [] /\ allowed_of s id = [] /\ vqs_of s id = [] /\ st_mlen s id = 0.
Proof. intros F. apply F. Qed.
Lemma fresh_bids s id : fresh_inv s -> (st_aseq s <= id)%N -> bids_of s id = [].
Proof. intros F H. apply (fresh_free s F id H). Qed.
Lemma fresh_vqs s id : fresh_inv s -> (st_aseq s <= id)%N -> vqs_of s id = [].
Proof. intros F H. apply (fresh_free s F id H). Qed.
Lemma fresh_waiting s : fresh_inv s -> forall a, In a (st_auctions s) ->
  a_status a = StandBy \/ a_status a = Cancelled -> bids_of s (a_id a) = [].
Proof. intros F. apply F. Qed.

(* an update with a frame on an auction that exists leaves the ids not yet given out alone *)
Lemma fresh_free_frame id s s' :
  frame id s s' -> st_aseq s' = st_aseq s -> (id < st_aseq s)%N -> fresh_inv s -> forall j, (st_aseq s' <= j)%N ->
  st_bseq s' j = 0%N /\ bids_of s' j = [] /\ allowed_of s' j = [] /\ vqs_of s' j = [] /\ st_mlen s' j = 0.
Proof.
  intros Fr E Hlt F j Hj. rewrite E in Hj. assert (Hne : j <> id) by lia.
  destruct (Fr j Hne) as [_ -> -> -> -> -> _]. exact (fresh_free s F j Hj).
Qed.

Lemma bid_wf_dep s s' b :
  st_auctions s' = st_auctions s -> st_bseq s' = st_bseq s -> bid_wf s b -> bid_wf s' b.
Proof.
  intros Ha Hb [H1 H2 H3 H4]. split; [exact H1|exact H2|rewrite Hb; exact H3|].
  unfold find_auction in *. rewrite Ha. exact H4.
Qed.

Lemma bids_wf_dep s s' :
  st_auctions s' = st_auctions s -> st_bids s' = st_bids s -> st_bseq s' = st_bseq s -> bids_wf s -> bids_wf s'.
Proof.
  intros Ha Hb Hq [H1 H2]. split.
  - rewrite Hb. eapply Forall_impl; [|exact H1]. intros b. apply bid_wf_dep; assumption.
  - intros id. unfold bids_of. rewrite Hb, Hq. apply H2.
Qed.

(* s' has the fields of s that InvS reads: all but bank, clock, listeners, switch, log and trace *)
Definition ceq (s s' : state) : Prop :=
  st_params s' = st_params s /\ st_auctions s' = st_auctions s /\ st_bids s' = st_bids s
  /\ st_allowed s' = st_allowed s /\ st_vqs s' = st_vqs s /\ st_aseq s' = st_aseq s
  /\ st_bseq s' = st_bseq s /\ st_mlen s' = st_mlen s.

Lemma ceq_sym s s' : ceq s s' -> ceq s' s.
Proof. unfold ceq. intros (H1 & H2 & H3 & H4 & H5 & H6 & H7 & H8). repeat split; congruence. Qed.

Lemma InvS_ceq s s' : ceq s s' -> InvS s -> InvS s'.
Proof.
  intros (Hparams & Hauctions & Hbids & Hallowed & Hvqs & Haseq & Hbseq & Hmlen) I. split.
  - unfold ids_seq. rewrite Hauctions, Haseq. exact (is_ids s I).
  - unfold auctions_wf. rewrite Hauctions. exact (is_auctions s I).
  - exact (bids_wf_dep s s' Hauctions Hbids Hbseq (is_bids s I)).
  - unfold allowed_wf. rewrite Hallowed. exact (is_allowed s I).
  - unfold mlen_inv, find_auction. rewrite Hauctions, Hbids, Hmlen. exact (is_mlen s I).
  - unfold params_wf. rewrite Hparams. exact (is_params s I).
  - unfold fresh_inv, bids_of, allowed_of, vqs_of. rewrite Hauctions, Hbids, Hallowed, Hvqs, Haseq, Hbseq, Hmlen.
    exact (is_fresh s I).
Qed.

Lemma InvS_with_trace s tr : InvS s -> InvS (with_trace s tr).
Proof. apply InvS_ceq. repeat split. Qed.
Lemma InvS_with_now s t : InvS s -> InvS (with_now s t).
Proof. apply InvS_ceq. repeat split. Qed.
Lemma InvS_with_bank s b xs : InvS s -> InvS (with_bank s b xs).
Proof. apply InvS_ceq. repeat split. Qed.
Lemma InvS_with_listeners s l : InvS s -> InvS (with_listeners s l).
Proof. apply InvS_ceq. repeat split. Qed.

Lemma fund_pool_ceq s u cs s1 : fund_pool s u cs = Ok s1 -> ceq s s1.
Proof.
  intros H. pose proof (HookBase.fund_pool_bankop s u cs) as B. rewrite H in B. destruct B. repeat split; assumption.
Qed.

Lemma ids_upto_succ n : ids_upto (n + 1) = ids_upto n ++ [n].
Proof.
  unfold ids_upto. replace (N.to_nat (n + 1)) with (S (N.to_nat n)) by lia.
  rewrite seq_S, map_app. cbn [map]. rewrite Nat.add_0_l, N2Nat.id. reflexivity.
Qed.
Lemma ids_upto_in x n : In x (ids_upto n) <-> (x < n)%N.
Proof.
  unfold ids_upto. rewrite in_map_iff. split.
  - intros (k & <- & Hk). apply in_seq in Hk. lia.
  - intros H. exists (N.to_nat x). split; [apply N2Nat.id|].
    apply in_seq. lia.
Qed.
Lemma ids_upto_nodup n : NoDup (ids_upto n).
Proof.
  induction n as [|n IH] using N.peano_ind.
  - constructor.
  - rewrite <- N.add_1_r, ids_upto_succ. apply NoDup_snoc; [exact IH|]. rewrite ids_upto_in. lia.
Qed.
Lemma succ_ids_nodup n : NoDup (map N.succ (ids_upto n)).
Proof. apply FinFun.Injective_map_NoDup; [intros x y; apply N.succ_inj|apply ids_upto_nodup]. Qed.

Lemma ids_seq_ids_ok s : ids_seq s -> ids_ok s.
Proof.
  unfold ids_seq, ids_ok. intros H. split.
  - rewrite H. apply ids_upto_nodup.
  - rewrite Forall_forall. intros a Ha. apply ids_upto_in.
    rewrite <- H. apply in_map. exact Ha.
Qed.

Lemma InvS_find s a : InvS s -> In a (st_auctions s) -> find_auction s (a_id a) = Some a.
Proof. intros I Ha. apply ids_ok_find; [apply ids_seq_ids_ok, I|exact Ha]. Qed.
Lemma InvS_find_lt s id a : InvS s -> find_auction s id = Some a -> (id < st_aseq s)%N.
Proof.
  intros I F. apply find_auction_some in F. destruct F as [Ha <-].
  destruct (ids_seq_ids_ok s (is_ids s I)) as [_ H]. rewrite Forall_forall in H. apply H. exact Ha.
Qed.
Lemma InvS_find_wf s id a : InvS s -> find_auction s id = Some a -> auction_wf a.
Proof.
  intros I F. apply find_auction_some in F. destruct F as [Ha _].
  pose proof (is_auctions s I) as H. unfold auctions_wf in H. rewrite Forall_forall in H.
  apply H. exact Ha.
Qed.

Lemma bids_wf_nodup s id : bids_wf s -> NoDup (map b_id (bids_of s id)).
Proof. intros [_ H]. rewrite H. apply succ_ids_nodup. Qed.

(* and, the ids being distinct per auction, the keys (auction, id) are distinct in the store *)
Lemma bid_keys_NoDup s : bids_wf s -> bid_keys_unique s.
Proof. intros H. apply (NoDup_pair_keys b_auction b_id). intros a. exact (bids_wf_nodup s a H). Qed.

Lemma bids_of_in s id b : In b (bids_of s id) <-> In b (st_bids s) /\ b_auction b = id.
Proof. unfold bids_of. rewrite filter_In, N.eqb_eq. reflexivity. Qed.

Lemma count_matched_of s id : count_matched (st_bids s) id = Z.of_nat (length (filter b_matched (bids_of s id))).
Proof. unfold count_matched, bids_of. rewrite filter_filter. reflexivity. Qed.
Lemma count_matched_nil s id : bids_of s id = [] -> count_matched (st_bids s) id = 0.
Proof. intros H. rewrite count_matched_of, H. reflexivity. Qed.

Lemma count_matched_map s s' g j :
  bids_of s' j = map g (bids_of s j) -> (forall x, In x (bids_of s j) -> b_matched (g x) = b_matched x) ->
  count_matched (st_bids s') j = count_matched (st_bids s) j.
Proof.
  intros E H. rewrite !count_matched_of, E, filter_map_swap, map_length. f_equal. f_equal.
  apply filter_ext_in. exact H.
Qed.

Lemma vqs_fresh_iff (l : list vq) (n : N) :
  (forall id, (n <= id)%N -> filter (fun x => N.eqb (v_auction x) id) l = [])
  <-> Forall (fun v => (v_auction v < n)%N) l.
Proof.
  rewrite Forall_forall. split.
  - intros H v Hv. destruct (N.lt_ge_cases (v_auction v) n) as [L|G]; [exact L|].
    specialize (H _ G). rewrite filter_nil_iff in H. specialize (H v Hv).
    rewrite N.eqb_refl in H. discriminate.
  - intros H id Hid. apply filter_nil_iff. intros v Hv.
    apply N.eqb_neq. specialize (H v Hv). lia.
Qed.

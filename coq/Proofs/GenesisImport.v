(* C15, the import and the round trip: `state_same` (equal module state up to the order of the three stores) is
   defined here; importing the exported genesis succeeds and gives a state_same state (import_export), so the GENESIS
   operation answers GenOk true and lands in one (genesis_step).  Of the invariant: ids_seq, auctions_wf, bids_wf,
   allowed_wf, vqs_wf, mlen_inv.  That the export validates is GenesisRT.v. *)
From Coq Require Import ZArith NArith List Bool Lia Permutation Sorted.
From FR Require Import Types Match Step Genesis Model.
From FR.Proofs Require Import ListFacts InvDefs GenesisSort GenesisRT ImportShape.
From FR.Proofs Require FrameFacts VestingInv.
Import ListNotations.
Open Scope Z_scope.

Record state_same (s s' : state) : Prop := {
  ss_auctions : st_auctions s' = st_auctions s;
  ss_aseq : st_aseq s' = st_aseq s;
  ss_bids_of : forall id, bids_of s' id = bids_of s id;
  ss_bids_perm : Permutation (st_bids s') (st_bids s);
  ss_find_allowed : forall a u, find_allowed s' a u = find_allowed s a u;
  ss_allowed_perm : Permutation (st_allowed s') (st_allowed s);
  (* what the matching reads from the allow-list of an auction: each bidder's maximum *)
  ss_caps : forall id u, caps_of (allowed_of s' id) u = caps_of (allowed_of s id) u;
  ss_vqs_of : forall id, vqs_of s' id = vqs_of s id;
  ss_vqs_perm : Permutation (st_vqs s') (st_vqs s);
  ss_bseq : forall id, st_bseq s' id = st_bseq s id;
  ss_mlen : forall id, st_mlen s' id = st_mlen s id;
  ss_params : st_params s' = st_params s;
  ss_bal : st_bal s' = st_bal s;
  ss_now : st_now s' = st_now s;
  ss_listeners : st_listeners s' = st_listeners s;
  ss_switch : st_switch s' = st_switch s;
  ss_xfers : st_xfers s' = st_xfers s;
  ss_trace : st_trace s' = st_trace s
}.

Lemma bids_of_sorted s id : bids_wf s -> StronglySorted (leP bid_le) (bids_of s id).
Proof.
  intros Hb. apply (slice_sorted b_auction (fun x y => N.leb (b_id x) (b_id y)) b_id N.lt).
  - intros x y Hlt. apply N.leb_le. lia.
  - exact (bid_ids_sorted s id Hb).
Qed.

(* of vq_wf: the auction of a stored instalment exists, is vesting or finished, and has a schedule *)
Lemma vq_wf_auction s v : vq_wf s v ->
  exists a, find_auction s (v_auction v) = Some a /\ (a_status a = VestingS \/ a_status a = Finished) /\ a_scheds a <> [].
Proof.
  intros Hv. destruct (vwf_auction s v Hv) as (a & Hfa & Hst & _ & _ & Htime & _).
  exists a. split; [exact Hfa|]. split; [exact Hst|]. intros En. rewrite En in Htime. exact Htime.
Qed.

Lemma vqs_of_sorted s id : auctions_wf s -> vqs_wf s -> StronglySorted (leP vq_le) (vqs_of s id).
Proof.
  intros Hau [Hwf [_ Hord]].
  destruct (vqs_of s id) as [|v r] eqn:E; [constructor|]. rewrite <- E.
  assert (In v (vqs_of s id)) as Hv by (rewrite E; left; reflexivity).
  unfold vqs_of in Hv. apply filter_In in Hv. destruct Hv as [Hv Ev]. apply N.eqb_eq in Ev.
  rewrite Forall_forall in Hwf.
  destruct (vq_wf_auction s v (Hwf v Hv)) as [a [Hfa [Hst Hne]]].
  rewrite Ev in Hfa. apply FrameFacts.find_auction_some in Hfa. destruct Hfa as [Hain Eid].
  destruct (Hord a Hain Hst Hne) as [Htimes _]. rewrite Eid in Htimes.
  unfold auctions_wf in Hau. rewrite Forall_forall in Hau.
  destruct (awf_scheds a (Hau a Hain)) as [Hs|Hs]; [contradiction|].
  apply (slice_sorted v_auction (fun x y => v_time x <=? v_time y) v_time Z.lt).
  - intros x y Hlt. apply Z.leb_le. lia.
  - fold (vqs_of s id). rewrite Htimes. exact (VestingInv.scheds_ok_sorted _ _ _ _ Hs).
Qed.

Lemma allowed_key_unique l a u : NoDup (map allowed_key l) -> forall x y, In x l -> In y l ->
  N.eqb (al_auction x) a && N.eqb (al_bidder x) u = true ->
  N.eqb (al_auction y) a && N.eqb (al_bidder y) u = true -> x = y.
Proof.
  intros Hnd x y Hx Hy Ex Ey. apply (NoDup_map_inj allowed_key l x y Hnd Hx Hy).
  exact (eq_trans (eqb_pair_NN _ _ _ _ Ex) (eq_sym (eqb_pair_NN _ _ _ _ Ey))).
Qed.

Lemma find_allowed_perm l l' a u : NoDup (map allowed_key l) -> Permutation l l' ->
  find (fun x => N.eqb (al_auction x) a && N.eqb (al_bidder x) u) l'
  = find (fun x => N.eqb (al_auction x) a && N.eqb (al_bidder x) u) l.
Proof. intros Hnd. apply find_perm_unique. exact (allowed_key_unique l a u Hnd). Qed.

Lemma caps_find l id u : NoDup (map allowed_key l) ->
  find (fun x => N.eqb (al_bidder x) u) (rev (filter (fun x => N.eqb (al_auction x) id) l))
  = find (fun x => N.eqb (al_auction x) id && N.eqb (al_bidder x) u) l.
Proof.
  intros Hnd.
  rewrite (find_filter_and (fun x => N.eqb (al_auction x) id) (fun x => N.eqb (al_bidder x) u) l).
  apply find_perm_unique; [|apply Permutation_rev].
  intros x y Hx Hy Ex Ey. apply filter_In in Hx. apply filter_In in Hy.
  destruct Hx as [Hx Ax]. destruct Hy as [Hy Ay].
  apply (allowed_key_unique l id u Hnd x y Hx Hy); apply andb_true_intro; split; assumption.
Qed.

Lemma caps_of_allowed_of s id u : NoDup (map allowed_key (st_allowed s)) ->
  caps_of (allowed_of s id) u = option_map al_max (find_allowed s id u).
Proof. intros Hnd. unfold caps_of, allowed_of, find_allowed. rewrite caps_find by exact Hnd. reflexivity. Qed.

Lemma import_auctions_seq l : forall k n, map a_id l = seqN k n ->
  import_auctions l k = (l, (k + N.of_nat n)%N).
Proof.
  induction l as [|a r IH]; intros k n H.
  - destruct n as [|n]; [|discriminate]. cbn [import_auctions]. f_equal. lia.
  - destruct n as [|n]; [discriminate|]. cbn [map seqN] in H. injection H as Ea Er.
    cbn [import_auctions]. rewrite (IH _ _ Er). rewrite <- Ea.
    f_equal; [|lia]. f_equal. destruct a; reflexivity.
Qed.

Lemma fold_put_allowed L : forall s, NoDup (map allowed_key (st_allowed s ++ L)) ->
  st_allowed (fold_left reput L s) = st_allowed s ++ L.
Proof.
  induction L as [|x r IH]; intros s Hnd; cbn [fold_left]; [symmetry; apply app_nil_r|].
  assert (st_allowed (reput s x) = st_allowed s ++ [x]) as Eput.
  { unfold reput, put_allowed.
    destruct (find_allowed s (al_auction x) (al_bidder x)) as [y|] eqn:Ef; [|destruct x; reflexivity].
    exfalso. unfold find_allowed in Ef. apply find_some in Ef. destruct Ef as [Hy Ek].
    exact (NoDup_app_before_neq allowed_key _ x r y Hnd Hy (eqb_pair_NN _ _ _ _ Ek)). }
  rewrite IH, Eput, <- app_assoc; [reflexivity|]. rewrite Eput, <- app_assoc. exact Hnd.
Qed.

(* bids whose ids continue the counter of their auction are stored as they are; only the counters move *)
Lemma number_seq L : forall f,
  (forall id, map b_id (filter (fun b => N.eqb (b_auction b) id) L)
              = seqN (f id + 1) (length (filter (fun b => N.eqb (b_auction b) id) L))) ->
  fst (number f L) = L
  /\ forall id, snd (number f L) id = (f id + N.of_nat (length (filter (fun b => N.eqb (b_auction b) id) L)))%N.
Proof.
  induction L as [|b r IH]; intros f Hids; cbn [number].
  - split; [reflexivity|]. intros id. cbn [filter length N.of_nat snd]. lia.
  - assert (b_id b = (f (b_auction b) + 1)%N) as Eid.
    { pose proof (Hids (b_auction b)) as Hi. cbn [filter] in Hi. rewrite N.eqb_refl in Hi.
      cbn [map length seqN] in Hi. injection Hi as E _. exact E. }
    rewrite <- Eid.
    assert (forall id, upd f (b_auction b) (b_id b) id = if N.eqb (b_auction b) id then (f id + 1)%N else f id) as Eseq.
    { intros id. unfold upd. rewrite N.eqb_sym. destruct (N.eqb_spec (b_auction b) id) as [<-|_]; [exact Eid|reflexivity]. }
    destruct (IH (upd f (b_auction b) (b_id b))) as [El Hf].
    + intros id. pose proof (Hids id) as Hi. cbn [filter] in Hi. rewrite Eseq.
      destruct (N.eqb (b_auction b) id); [|exact Hi].
      cbn [map length seqN] in Hi. injection Hi as _ Hi. exact Hi.
    + destruct (number _ r) as [l' f']. cbn [fst snd] in *. split; [rewrite El; destruct b; reflexivity|].
      intros id. rewrite Hf, Eseq. cbn [filter]. destruct (N.eqb (b_auction b) id); cbn [length]; lia.
Qed.

Lemma fold_put_vq_fresh L : forall l, NoDup (map VestingFacts.vkey (l ++ L)) -> fold_left put_vq L l = l ++ L.
Proof.
  induction L as [|v r IH]; intros l Hnd; cbn [fold_left]; [symmetry; apply app_nil_r|].
  assert (put_vq l v = l ++ [v]) as ->.
  { unfold put_vq. rewrite filter_all_true; [reflexivity|].
    intros x Hx. apply negb_true_iff. apply not_true_iff_false. intros Ek.
    exact (NoDup_app_before_neq VestingFacts.vkey _ v r x Hnd Hx (eqb_pair_NZ _ _ _ _ Ek)). }
  rewrite IH, <- app_assoc; [reflexivity|]. rewrite <- app_assoc. exact Hnd.
Qed.

Lemma count_matched_perm l l' id : Permutation l l' -> count_matched l id = count_matched l' id.
Proof.
  intros H. unfold count_matched. f_equal. apply Permutation_length. apply filter_perm. exact H.
Qed.

(* t related to s but for its vesting queues: any rearrangement of those of s with the same slices completes it *)
Lemma state_same_intro_vqs s t :
  state_same s (with_vqs t (st_vqs s)) ->
  (forall id, vqs_of t id = vqs_of s id) -> Permutation (st_vqs t) (st_vqs s) -> state_same s t.
Proof. intros [] Hof Hp. constructor; assumption. Qed.

(* all of the imported state but the vesting queues (auctions, allow-list, bids, matched lengths); neither
   auctions_wf nor vqs_wf is used *)
Lemma imported_upto_vqs s :
  ids_seq s -> bids_wf s -> allowed_wf s -> mlen_inv s ->
  st_auctions (import_base s (export s)) = st_auctions s
  /\ known (import_base s (export s)) (map b_auction (g_bids (export s))) = true
  /\ state_same s (with_vqs (imported s (export s)) (st_vqs s)).
Proof.
  intros Hids [Hbw Hbids] [Hpos Hnd] Hml.
  assert (import_auctions (st_auctions s) 0 = (st_auctions s, st_aseq s)) as Eau.
  { rewrite (import_auctions_seq _ 0 (N.to_nat (st_aseq s))) by (rewrite <- ids_upto_seqN; exact Hids). f_equal. lia. }
  assert (st_auctions (import_base s (export s)) = st_auctions s) as Eb.
  { unfold import_base, export. cbn [st_auctions g_auctions]. rewrite Eau. reflexivity. }
  set (La := sort_by allowed_le (st_allowed s)).
  set (Lb := sort_by bid_le (st_bids s)).
  assert (NoDup (map allowed_key La)) as HndLa by (apply sort_by_NoDup_keys; exact Hnd).
  assert (forall id, filter (fun b => N.eqb (b_auction b) id) Lb = bids_of s id) as Efil.
  { intros id. apply (filter_sort_by_sorted bid_le bid_le_total bid_le_trans).
    apply bids_of_sorted. split; assumption. }
  assert (forall id, length (bids_of s id) = N.to_nat (st_bseq s id)) as Elen.
  { intros id. rewrite <- (map_length b_id), Hbids, succ_ids_upto_seqN. apply seqN_length. }
  destruct (number_seq Lb (fun _ => 0%N)) as [El Hf].
  { intros id. rewrite Efil, Hbids, succ_ids_upto_seqN, Elen. reflexivity. }
  split; [exact Eb|]. split.
  { apply known_In. intros a Ha. apply in_map_iff in Ha. destruct Ha as (b & <- & Hb'). apply sort_by_in in Hb'.
    rewrite Forall_forall in Hbw. destruct (bwf_auction s b (Hbw b Hb')) as [au [Ha _]].
    rewrite (FrameFacts.find_auction_conv _ _ _ Eb). congruence. }
  unfold imported, import_base, export. cbn [g_auctions g_allowed g_bids g_vqs g_params]. fold La Lb.
  rewrite Eau, El, fold_put_allowed by exact HndLa.
  (* the fields of state_same that are not literally equal, in the order of the record *)
  constructor; try reflexivity.
  - (* ss_bids_of *) exact Efil.
  - (* ss_bids_perm *) apply sort_by_perm.
  - (* ss_find_allowed *) intros a u. apply (find_allowed_perm (st_allowed s) La a u Hnd). apply Permutation_sym, sort_by_perm.
  - (* ss_allowed_perm *) apply sort_by_perm.
  - (* ss_caps *) intros id u. rewrite (caps_of_allowed_of s id u) by exact Hnd.
    change (caps_of (filter (fun x => N.eqb (al_auction x) id) La) u = option_map al_max (find_allowed s id u)).
    unfold caps_of. rewrite caps_find by exact HndLa. f_equal.
    apply (find_allowed_perm (st_allowed s) La id u Hnd). apply Permutation_sym, sort_by_perm.
  - (* ss_bseq *) intros id. cbn [st_bseq with_vqs]. rewrite Hf, Efil, Elen. lia.
  - (* ss_mlen *) intros id. cbn [st_mlen with_vqs]. unfold import_mlen. cbn [g_bids].
    change (find_auction _ id) with (find_auction s id).
    specialize (Hml id). destruct (find_auction s id) as [a|]; [|symmetry; exact Hml].
    destruct (a_type a); [symmetry; exact Hml|].
    rewrite Hml. apply count_matched_perm. apply sort_by_perm.
Qed.

Theorem import_export_parts s :
  ids_seq s -> auctions_wf s -> bids_wf s -> allowed_wf s -> vqs_wf s -> mlen_inv s ->
  exists s', import s (export s) = Some s' /\ state_same s s'.
Proof.
  intros Hids Hau Hb Hal Hvq Hml.
  destruct (imported_upto_vqs s Hids Hb Hal Hml) as (Eau & Ek & Hsame).
  exists (imported s (export s)). rewrite import_closed, Ek. split.
  - replace (known _ (map v_auction _)) with true; [reflexivity|]. symmetry. apply known_In.
    intros a Ha. apply in_map_iff in Ha. destruct Ha as (v & <- & Hv). apply sort_by_in in Hv.
    destruct Hvq as [Hv1 _]. rewrite Forall_forall in Hv1.
    destruct (vq_wf_auction s v (Hv1 v Hv)) as [au [Ha _]]. rewrite (FrameFacts.find_auction_conv _ _ _ Eau). congruence.
  - assert (st_vqs (imported s (export s)) = sort_by vq_le (st_vqs s)) as Ev
      by (apply (fold_put_vq_fresh _ []), sort_by_NoDup_keys, Hvq).
    apply (state_same_intro_vqs s _ Hsame); unfold vqs_of; rewrite Ev; [|apply sort_by_perm].
    intros id. apply (filter_sort_by_sorted vq_le vq_le_total vq_le_trans).
    apply vqs_of_sorted; assumption.
Qed.

Theorem import_export s : Inv s -> exists s', import s (export s) = Some s' /\ state_same s s'.
Proof. intros H. apply import_export_parts; apply H. Qed.

Theorem genesis_step s : Inv s -> exists s', step s OGenesis = (GenOk true, s') /\ state_same s s'.
Proof.
  intros H. destruct (import_export s H) as [s' [Himp Hsame]].
  exists s'. split; [|exact Hsame].
  cbn [step]. unfold genesis_roundtrip. rewrite Himp. rewrite (export_validates s H). reflexivity.
Qed.

(* Checker link for C19: Checkers.c19_ok holds of every transition of the model from a state satisfying the invariant.
   Each clause of the checker is the boolean form of a theorem of Properties/C19.v or of the lemma of LifeTheorems.v behind it; the id clauses also use the
   invariant of the post-state (ids_seq, bids_wf).  c19_release_own is the release clause of c09_ok; with it, c19_all. *)
From Coq Require Import ZArith NArith List Bool Arith Lia.
From FR Require Import Types Bank Step Genesis Model Checkers.
From FR.Proofs Require Import InvDefs FrameFacts BlockFacts BlockWalk LifeTheorems InvAll FixedFacts EscrowBase ExcessDefs.
From FR.Proofs Require Import EqbFacts.
From FR.Proofs Require ExcessAll GenesisImport GenesisSort GenesisRT ChkSettle Chk09.
From FR.Properties Require Import C19.
Import ListNotations.
Open Scope Z_scope.

Lemma slice_eqb_intro s s' id :
  find_auction s' id = find_auction s id -> bids_of s' id = bids_of s id -> allowed_of s' id = allowed_of s id ->
  vqs_of s' id = vqs_of s id -> st_bseq s' id = st_bseq s id -> st_mlen s' id = st_mlen s id ->
  slice_eqb s s' id = true.
Proof.
  intros Ha Hb Hal Hv Hs Hm. unfold slice_eqb. rewrite Ha, Hb, Hal, Hv, Hs, Hm.
  rewrite same_bids_refl, same_allowed_refl, same_vqs_refl, N.eqb_refl, Z.eqb_refl.
  destruct (find_auction s id) as [a|]; [rewrite auction_eqb_refl|]; reflexivity.
Qed.

Lemma slice_eqb_of s s' id : slice_eq id s s' -> slice_eqb s s' id = true.
Proof. intros [A1 A2 A3 A4 A5 A6 _]. apply slice_eqb_intro; assumption. Qed.

Lemma donation_not_send o out r id d : (forall f t d0 a, o <> OSend f t d0 a) -> donation o out r id d = 0.
Proof. intros H. destruct o; try reflexivity. exfalso. eapply H. reflexivity. Qed.

(* a plain send moves the balance of an escrow account by what it donates to it *)
Lemma send_donation s from to d amt out s' r id d' :
  TxFacts.tx_shape s (OSend from to d amt) out s' ->
  st_bal s' (Escrow r id) d' = st_bal s (Escrow r id) d' + donation (OSend from to d amt) out r id d'.
Proof.
  intros Sh. inversion Sh; subst; try discriminate; cbn [donation].
  - cbn [with_trace st_bal]. lia.
  - rewrite Ledger.banked_bal, Ledger.net_send_xf, (N.eqb_sym d d'). cbn [addr_eqb andb]. unfold BankFacts.ind.
    destruct (addr_eqb to (Escrow r id) && N.eqb d' d); lia.
Qed.

Lemma idle_b_idle tm s a : idle_b tm s a = true -> idle tm s a.
Proof.
  unfold idle_b, idle. destruct (a_status a); intros H; try exact I.
  - apply Z.ltb_lt, H.
  - apply Z.ltb_lt, H.
  - intros v Hv. rewrite forallb_forall in H. specialize (H v Hv). apply negb_true_iff in H. exact H.
Qed.

Lemma c19_frame_other s o id :
  Inv s -> o <> OGenesis ->
  match FrameFacts.target s o with
  | Some a => N.eqb a id
  | None => FrameFacts.is_block o
            && match find_auction s id with Some a => negb (idle_b (FrameFacts.block_time o) s a) | None => false end
  end = false ->
  slice_eqb s (snd (step s o)) id = true
  /\ forall r d, st_bal (snd (step s o)) (Escrow r id) d = st_bal s (Escrow r id) d + donation o (fst (step s o)) r id d.
Proof.
  intros I Hgen Hnt. destruct (FrameFacts.target s o) as [tid|] eqn:T.
  - apply N.eqb_neq in Hnt. assert (Hne : id <> tid) by congruence.
    pose proof (TxFacts.step_frame_tx s o tid T id Hne) as F. split; [apply slice_eqb_of; exact F|].
    intros r d. rewrite (se_bal _ _ _ F), donation_not_send; [lia|].
    intros f t d0 a ->. discriminate T.
  - destruct (FrameFacts.is_block o) eqn:Hblk.
    + cbn [andb] in Hnt.
      assert (F : slice_eq id s (snd (step s o))).
      { apply (C19_frame_block s o id (Inv_ids_ok s I) Hblk).
        destruct (find_auction s id) as [a|] eqn:Fa; [right|left; reflexivity].
        exists a. split; [reflexivity|]. apply idle_b_idle. apply negb_false_iff. exact Hnt. }
      split; [apply slice_eqb_of; exact F|].
      intros r d. rewrite (se_bal _ _ _ F), donation_not_send; [lia|].
      intros f t d0 a ->. discriminate Hblk.
    + destruct (C19_frame_untargeted s o id T Hblk Hgen) as (A1 & A2 & A3 & A4 & A5 & A6 & A7).
      split; [apply slice_eqb_intro; try assumption; [rewrite A5|rewrite A6]; reflexivity|].
      intros r d'.
      destruct o as [m|a l|a u max|t orc|t orc k|from to d amt|ls|].
      all: try (rewrite A7 by (intros; discriminate); rewrite donation_not_send by (intros; discriminate); lia).
      exact (send_donation s from to d amt _ _ r id d' (TxFacts.step_shape s _ Hblk Hgen)).
Qed.

Lemma Inv_bounded s : Inv s -> bounded s.
Proof.
  intros I. pose proof (inv_auctions _ I) as W. unfold auctions_wf in W. unfold bounded.
  eapply Forall_impl; [|exact W]. intros a Wa. split; [apply (awf_ends _ Wa)|apply (awf_maxr _ Wa)].
Qed.

Theorem c19_ok_model s o : Inv s -> c19_ok (model_trans s o) = true.
Proof.
  intros I. pose proof (Inv_ghost_reset s I) as I0. pose proof (Inv_ids_ok _ I0) as OK0.
  pose proof (Inv_step _ o I0) as I1. rewrite FixedFacts.model_trans_eq. cbv zeta.
  unfold c19_ok. cbn [t_op]. apply ChkSettle.not_genesis_match. intros Hgen.
  repeat (apply andb_true_iff; split); cbn [t_pre t_post t_class].
  - (* frame *)
    apply forallb_forall. intros id _. cbv zeta. rewrite target_agrees. cbn [t_pre t_op].
    match goal with |- ?tg || _ = true => destruct tg eqn:Htg; [reflexivity|] end.
    destruct (c19_frame_other (ghost_reset s) o id I0 Hgen Htg) as [Hs He].
    apply andb_true_iff. split; [exact Hs|].
    unfold escrows_eqb. apply forallb_forall. intros r _. apply forallb_forall. intros d _.
    rewrite ExcessAll.donated_same. cbn [t_post t_pre]. apply Z.eqb_eq. apply (He r d).
  - (* terms *)
    apply forallb_forall. intros [a a'] Hp. apply ChkSettle.in_paired in Hp. cbn [t_pre t_post] in Hp.
    destruct Hp as [Ha Fa'].
    pose proof (Inv_find_in (ghost_reset s) a I0 Ha) as Fa.
    destruct (C19_terms_eqb (ghost_reset s) o (a_id a) a OK0 (Inv_bounded _ I0) Hgen Fa) as (a'' & Fa'' & Te).
    rewrite Fa' in Fa''. injection Fa'' as <-. exact Te.
  - (* bids *)
    apply forallb_forall. intros b Hb.
    pose proof (Inv_find_bid_in (ghost_reset s) b I0 Hb) as Fb.
    destruct (step_bids_evolve (ghost_reset s) o OK0 Hgen _ _ _ Fb) as (b' & Fb' & (_ & _ & Hu & Ht & _)).
    rewrite Fb', Hu, Ht, N.eqb_refl. apply btype_eqb_refl.
  - (* the auction counter never decreases *)
    apply N.leb_le. exact (C19_aseq_mono (ghost_reset s) o OK0 Hgen).
  - (* the ids are 0 .. counter-1 in this order: as many as the counter says, and that list *)
    apply Nat.eqb_eq. rewrite <- (map_length a_id), (inv_ids _ I1). apply GenesisRT.ids_upto_length.
  - rewrite (inv_ids _ I1). apply list_eqb_N_refl.
  - (* bid counters and bid ids *)
    apply forallb_forall. intros id _. apply andb_true_iff. split.
    + apply N.leb_le. change (st_bseq s) with (st_bseq (ghost_reset s)).
      destruct (C19_bseq_only_place (ghost_reset s) o OK0 Hgen) as [E|(Hacc & who & id0 & bt & price & coin & ->)].
      * rewrite E. lia.
      * destruct (C19_place_ids _ _ _ _ _ _ Hacc) as (nb & _ & _ & _ & E). rewrite E.
        unfold upd. destruct (N.eqb id id0) eqn:Eid; [|lia]. apply N.eqb_eq in Eid. subst id0. lia.
    + destruct (inv_bids _ I1) as [W Hids].
      rewrite (GenesisSort.sort_by_id bid_le); [|apply GenesisImport.bids_of_sorted; split; assumption].
      rewrite Hids. apply list_eqb_N_refl.
  - (* a rejected operation does not move the auction counter *)
    destruct (oclass_eqb (class_of (fst (step (ghost_reset s) o))) KRej) eqn:Ek; [|reflexivity].
    apply class_rej_iff in Ek. destruct Ek as [c Ek].
    destruct (C19_rejected (ghost_reset s) o c Ek) as [tr E]. rewrite E. apply N.eqb_refl.
Qed.

Lemma c09_ok_release_own t : c09_ok t = true -> c19_release_own t = true.
Proof. unfold c09_ok. intros H. apply andb_true_iff in H. destruct H as [_ H]. exact H. Qed.

Theorem c19_all_model s o : Inv s -> c19_all (model_trans s o) = true.
Proof.
  intros I. unfold c19_all. rewrite (c19_ok_model s o I).
  rewrite (c09_ok_release_own _ (Chk09.c09_ok_model s o I)). reflexivity.
Qed.

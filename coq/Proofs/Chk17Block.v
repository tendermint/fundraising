(* Checker link for C17 (hooks): a successful block offers one BeforeAllocated hook per auction that it
   settles, in store order, whose allocation / refund maps are the amounts then transferred out of the auction's
   selling / paying escrow (read off the whole block's transfers, as the checker does).  The order is a fact about the
   trace alone (process_all_emits: the hooks of the actions chosen, one auction after the other); what each hook says is
   a fact about one auction (settle_hook_hm, from ChkSettle.settle_view); the action chosen for an auction is determined by
   the first state, which puts the two together (act_hook_hm).  Then Checkers.c17_ok for every operation (the calls
   are in Proofs/Chk17.v). *)
From Coq Require Import ZArith NArith List Bool Lia.
From FR Require Import Types Match Step Model Checkers.
From FR.Proofs Require Import InvDefs HookBase HookSites HookVeto HookBlock HookBlockTrace BlockFacts BlockWalk
  Ledger LedgerSettle FixedFacts Chk17.
From FR.Proofs Require EqbFacts FrameFacts InvAll LedgerCharges ChkSettle.
Import ListNotations.
Open Scope Z_scope.

(* the hook that Checkers.expected_hooks expects for a settled auction a with bids bs, its maps read off the transfers xs
   of the block; the amounts of an auctioneer bidding in its own auction cannot be told from the transfers, hence -1 *)
Definition chk_hook (xs : list xfer) (bs : list bid) (a : auction) : N * list Z :=
  (H_BeforeAllocated,
   zN (a_id a) :: enc_map (bidders_of bs)
       (fun u => if N.eqb u (a_auctioneer a) then -1
                 else sum_xfers xs (from_to (Escrow Selling (a_id a)) (User u) (a_sell_denom a)))
   ++ match a_type a with
      | Batch => enc_map (bidders_of bs)
                   (fun u => if N.eqb u (a_auctioneer a) then -1
                             else sum_xfers xs (from_to (Escrow Paying (a_id a)) (User u) (a_pay_denom a)))
      | FixedPrice => [0]
      end).

Definition settles_in (s' : state) (a : auction) : bool :=
  match find_auction s' (a_id a) with
  | Some a' => status_eqb (a_status a) Started && settled (a_status a')
  | None => false
  end.

Lemma paired_filter_map {B} (f : auction -> option auction) (g : auction * auction -> bool)
      (F : auction * auction -> B) (F' : auction -> B) (L : list auction) :
  (forall p, F p = F' (fst p)) ->
  map F (filter g (flat_map (fun a => match f a with Some a' => [(a, a')] | None => [] end) L))
  = map F' (filter (fun a => match f a with Some a' => g (a, a') | None => false end) L).
Proof.
  intros HF. induction L as [|a L IH]; cbn [flat_map filter map]; [reflexivity|].
  destruct (f a) as [a'|]; cbn [app filter]; [|exact IH].
  destruct (g (a, a')); cbn [map]; [rewrite HF, IH; reflexivity|exact IH].
Qed.

Lemma block_expected_hooks t : Checkers.is_block (t_op t) = true ->
  expected_hooks t
  = map (fun a => chk_hook (t_xfers t) (bids_of (t_pre t) (a_id a)) a) (filter (settles_in (t_post t)) (st_auctions (t_pre t))).
Proof.
  intros B. unfold expected_hooks, settling, paired. destruct (t_op t); try discriminate B.
  all: apply (paired_filter_map (fun a => find_auction (t_post t) (a_id a))
                (fun p => status_eqb (a_status (fst p)) Started && settled (a_status (snd p)))).
  all: intros p; reflexivity.
Qed.

(* the hook of a settlement against the hook the checker expects: the maps of the checker are the sums it takes over all
   the transfers of the block, which for this auction are those of its settlement *)
Lemma settle_hook_hm s s' a a' t orc mi wr xs :
  ChkSettle.settle_view s s' xs a a' t orc mi wr ->
  hm (chk_hook xs (bids_of s (a_id a)) a) (H_BeforeAllocated, alloc_args a mi wr).
Proof.
  intros V. pose proof (ChkSettle.sv_dues V) as D.
  assert (Hin : forall u, In u (mi_bidders mi) -> existsb (N.eqb u) (bidders_of (bids_of s (a_id a))) = true).
  { intros u Hu. apply existsb_exists. exists u. split; [rewrite <- (du_bidders _ _ _ _ D); exact Hu|apply N.eqb_refl]. }
  split; [reflexivity|]. cbn [snd chk_hook]. unfold alloc_args.
  constructor; [right; reflexivity|]. rewrite <- (du_bidders _ _ _ _ D). apply Forall2_app.
  - apply okm_enc_map. intros u Hu. destruct (N.eqb u (a_auctioneer a)) eqn:Eu; [left; reflexivity|right].
    rewrite (ChkSettle.sv_received V u), (Hin u Hu), N.eqb_sym, Eu. lia.
  - pose proof (settles_with_wr _ _ _ _ _ _ (ChkSettle.sv_settles V)) as Ew. destruct (a_type a); subst wr; [apply okm_refl|].
    apply okm_enc_map. intros u Hu. destruct (N.eqb u (a_auctioneer a)) eqn:Eu; [left; reflexivity|right].
    rewrite (ChkSettle.sv_refunded V u), (Hin u Hu), N.eqb_sym, Eu. cbn [andb]. destruct (a_scheds a); lia.
Qed.

(* an auction of the first state, with the action chosen for it: the hook the checker expects of it, if any, is the hook
   of the action *)
Lemma act_hook_hm s t orc s' a x xs :
  Inv s -> st_xfers s' = st_xfers s ++ xs -> begin_block s t orc = Ok s' -> In a (st_auctions s) -> chosen t orc s a x ->
  Forall2 hm (if settles_in s' a then [chk_hook xs (bids_of s (a_id a)) a] else []) (act_hooks a x).
Proof.
  intros I X0 H Ha C. destruct (ChkSettle.block_view_holds s t orc s' a I H Ha) as (y & V).
  pose proof (ChkSettle.bv_chosen V) as Cy. rewrite (chosen_fun _ _ _ _ _ _ C Cy). clear C x.
  unfold settles_in. rewrite (ChkSettle.bv_find V).
  destruct (status_eqb (a_status a) Started && settled (a_status (act_record t s a y))) eqn:E.
  - apply andb_true_iff in E. destruct E as [St Hs]. apply EqbFacts.status_eqb_eq in St. apply ChkSettle.settled_true in Hs.
    destruct (BlockWalk.settling_act t orc s a y St Cy Hs) as (mi & wr & -> & Hw).
    constructor; [|constructor].
    exact (settle_hook_hm _ _ _ _ _ _ _ _ _ (ChkSettle.settle_view_of s s' xs a t orc mi wr I Ha St Hw X0 V)).
  - destruct y as [| |mi|mi wr|]; try constructor. exfalso.
    rewrite (chosen_status _ _ _ _ _ Cy) in E. cbn [act_record a_status set_status status_eqb andb] in E.
    destruct (settled_st_cases a) as [Es|Es]; rewrite Es in E; discriminate E.
Qed.

Theorem block_hooks s t orc s' :
  Inv s -> begin_block s t orc = Ok s' ->
  exists xs G,
    st_xfers s' = st_xfers s ++ xs /\ emits s G s' /\
    Forall2 hm (map (fun a => chk_hook xs (bids_of s (a_id a)) a) (filter (settles_in s') (st_auctions s))) G.
Proof.
  intros I H. destruct (LedgerCharges.begin_block_ledger_by s t orc s' H) as (xs & L & _). pose proof (lb_xfers _ _ _ L) as X.
  destruct (block_emits s t orc s' (proj1 (InvAll.Inv_ids_ok s I)) H) as (ys & F & E).
  exists xs. eexists. split; [exact X|]. split; [exact E|].
  apply (ListFacts.map_filter_flat hm (chosen t orc s)); [exact F|]. intros a x Ha C.
  exact (act_hook_hm s t orc s' a x xs I X H Ha C).
Qed.

(* the same against a transition: Checkers.expected_hooks reads the operation only for being a block *)
Lemma block_met s t orc s' tr :
  Inv s -> begin_block (ghost_reset s) t orc = Ok s' ->
  Checkers.is_block (t_op tr) = true -> t_pre tr = s -> t_post tr = s' -> t_xfers tr = st_xfers s' ->
  exists G, emits (ghost_reset s) G s' /\ Forall2 hm (expected_hooks tr) G.
Proof.
  intros I Hb B E1 E2 E3. rewrite (block_expected_hooks tr B), E1, E2, E3.
  destruct (block_hooks (ghost_reset s) t orc s' (Inv_ghost_reset s I) Hb) as (xs & G & X & T & M).
  exists G. split; [exact T|].
  (* the log of ghost_reset s is empty and its store that of s *)
  change (st_xfers s' = xs) in X. rewrite X. exact M.
Qed.

(* a block, with or without an injected fault: by step_block it went through as begin_block did, or it failed *)
Lemma block_op_met s o tr :
  Inv s -> FrameFacts.is_block o = true -> t_op tr = o -> t_pre tr = s ->
  t_post tr = snd (step (ghost_reset s) o) -> t_xfers tr = st_xfers (snd (step (ghost_reset s) o)) ->
  match class_of (fst (step (ghost_reset s) o)) with
  | KOk | KBlockOk => exists G, emits (ghost_reset s) G (snd (step (ghost_reset s) o)) /\ Forall2 hm (expected_hooks tr) G
  | KRej | KBlockErr | KPanic => True
  | _ => st_trace (snd (step (ghost_reset s) o)) = []
  end.
Proof.
  intros I B E0 E1 E2 E3. destruct (step_block (ghost_reset s) o B) as [[Ho Hb]|[(c & Ho) _]]; rewrite Ho; cbn [class_of].
  - apply (block_met s _ _ _ tr I Hb); [rewrite E0; exact B|assumption..].
  - destruct (N.eqb c E_PANIC); exact Logic.I.
Qed.

(* an operation that calls no hook *)
Lemma quiet_met s o :
  match o with OSend _ _ _ _ | OSetListeners _ | OGenesis => True | _ => False end ->
  st_trace (snd (step (ghost_reset s) o)) = st_trace (ghost_reset s) ->
  forall tr k, t_op tr = o ->
  match k with
  | KOk | KBlockOk => exists G, emits (ghost_reset s) G (snd (step (ghost_reset s) o)) /\ Forall2 hm (expected_hooks tr) G
  | KRej | KBlockErr | KPanic => True
  | _ => st_trace (snd (step (ghost_reset s) o)) = []
  end.
Proof.
  intros Ho Hn tr k Eo.
  assert (E : expected_hooks tr = []) by (unfold expected_hooks; rewrite Eo; destruct o; try contradiction; reflexivity).
  rewrite E. destruct k; try exact Logic.I; try exact Hn; (exists []; split; [apply emits_none, Hn|constructor]).
Qed.

Theorem c17_ok_model s o : Inv s -> c17_ok (model_trans s o) = true.
Proof.
  intros I. pose proof (Inv_ghost_reset s I) as I0. apply c17_by_verdict. rewrite model_trans_eq. cbv zeta.
  destruct o as [m|id l|id u max|t orc|t orc k|from to d amt|ls|].
  (* a message or an API call that is accepted has made the calls read off the records it left: hooks_met is the goal up
     to computation, ghost_reset s having the store and the listeners of s *)
  - destruct (call_outcome (ghost_reset s) (OTx m) Logic.I) as [Ha|[c Ha]]; rewrite Ha; cbn [class_of]; [|exact Logic.I].
    eexists. split; [exact (tx_expected (ghost_reset s) m I0 Ha)|apply hm_refl_all].
  - destruct (call_outcome (ghost_reset s) (OApiAdd id l) Logic.I) as [Ha|[c Ha]]; rewrite Ha; cbn [class_of]; [|exact Logic.I].
    eexists. split; [exact (api_add_expected (ghost_reset s) id l Ha)|apply hm_refl_all].
  - destruct (call_outcome (ghost_reset s) (OApiUpdate id u max) Logic.I) as [Ha|[c Ha]]; rewrite Ha; cbn [class_of]; [|exact Logic.I].
    eexists. split; [exact (api_update_expected (ghost_reset s) id u max Ha)|apply hm_refl_all].
  - apply block_op_met; [exact I|reflexivity..].
  - apply block_op_met; [exact I|reflexivity..].
  - apply quiet_met; [exact Logic.I|apply send_no_hooks|reflexivity].
  - apply quiet_met; [exact Logic.I|apply set_listeners_no_hooks|reflexivity].
  - apply quiet_met; [exact Logic.I|apply genesis_no_hooks|reflexivity].
Qed.

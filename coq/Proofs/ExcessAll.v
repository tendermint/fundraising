(* C01, exact form: the excess equation for the whole walk of a block (process_all, begin_block; one auction of the
   walk is EscrowBlock.process_kept), then for every operation (including GENESIS), along every history, from the
   empty module, and the link to the executable checker Checkers.c01_ok. *)
From Coq Require Import ZArith NArith List Bool Lia.
From FR Require Import Types Step Genesis Model.
From FR Require Checkers.
From FR.Proofs Require Import InvDefs FrameFacts BlockFacts BlockWalk.
From FR.Proofs Require GenesisImport FixedFacts EqbFacts.
From FR.Proofs Require Import InvAll ExcessDefs EscrowTx EscrowBlock.
Import ListNotations.
Open Scope Z_scope.

Theorem process_all_excess t orc : forall l s s',
  Inv s -> NoDup (map a_id l) -> (forall a, In a l -> In a (st_auctions s)) ->
  process_all t orc s l = Ok s' -> exc_rel s s'.
Proof.
  apply (process_all_Inv_ind t orc exc_rel); [intros s _; apply exc_rel_refl|].
  intros s a s1 s' I Ha E Sl P2.
  pose proof (bk_exc _ _ (process_kept t orc s a s1 I (Inv_find_in s a I Ha) E)) as P1.
  intros r id d. destruct (N.eq_dec id (a_id a)) as [->|Hne].
  - rewrite (excess_slice _ _ _ r d Sl).
    rewrite (sweepsP_conv_r s s1 s' r (a_id a) d (se_auction _ _ _ Sl)). apply P1.
  - pose proof (process_eff _ _ _ _ _ E) as PE.
    pose proof (pe_frame _ _ _ PE id Hne) as Sl0.
    rewrite (P2 r id d), (excess_slice _ _ _ r d Sl0).
    rewrite (sweepsP_conv_l s s1 s' r id d (se_auction _ _ _ Sl0)). reflexivity.
Qed.

Theorem begin_block_excess s t orc s' : Inv s -> begin_block s t orc = Ok s' -> exc_rel s s'.
Proof.
  rewrite begin_block_eq. intros I H.
  apply (exc_rel_pre s (with_now s t) s'); try reflexivity.
  apply (process_all_excess t orc _ _ _ (Inv_with_now s t I)) in H; [exact H| |auto].
  apply (Inv_ids_ok s I).
Qed.

Theorem excess_step_block s o : Inv s -> is_block o = true -> exc_step s o.
Proof.
  intros I B. apply exc_step_of_rel.
  - intros out. destruct o; try discriminate B; reflexivity.
  - destruct (step_block s o B) as [[_ H]|[_ (tr & ->)]].
    + eapply begin_block_excess; eassumption.
    + apply exc_rel_ext; reflexivity.
Qed.

Lemma excess_step_genesis s : Inv s -> exc_step s OGenesis.
Proof.
  intros I. destruct (GenesisImport.genesis_step s I) as (s' & Hs & SS).
  apply exc_step_of_rel; [reflexivity|]. rewrite Hs. cbn [snd].
  intros r id d.
  rewrite sweepsP_same by (unfold find_auction; now rewrite (GenesisImport.ss_auctions _ _ SS)).
  unfold excess, owed, find_auction.
  rewrite (GenesisImport.ss_bal _ _ SS), (GenesisImport.ss_auctions _ _ SS), (GenesisImport.ss_bids_of _ _ SS),
    (GenesisImport.ss_vqs_of _ _ SS). reflexivity.
Qed.

Theorem excess_step s o : Inv s -> forall r id d,
  excess (snd (step s o)) r id d
  = if sweepsP s (snd (step s o)) r id d then 0 else excess s r id d + donation o (fst (step s o)) r id d.
Proof.
  intros I. change (exc_step s o). destruct (is_block o) eqn:B.
  - apply excess_step_block; assumption.
  - destruct o as [m|id l|id u max|t orc|t orc k|from to d amt|ls|];
      try (apply nonblock_step_books; [exact I|exact B|discriminate]).
    apply excess_step_genesis, I.
Qed.

(* e carried along the history: reset by a sweep, increased by a donation.  Started from an excess it stays the
   excess (excess_run); started from 0 it counts the unswept third-party coins *)
Fixpoint ghost (s : state) (ops : list op) (e : Z) (r : role) (id d : N) : Z :=
  match ops with
  | [] => e
  | o :: rest => ghost (snd (step s o)) rest
                   (if sweepsP s (snd (step s o)) r id d then 0 else e + donation o (fst (step s o)) r id d) r id d
  end.

Theorem excess_run ops : forall s, Inv s -> forall r id d, excess (run s ops) r id d = ghost s ops (excess s r id d) r id d.
Proof.
  unfold run. induction ops as [|o ops IH]; cbn [fold_left ghost]; intros s I r id d; [reflexivity|].
  rewrite (IH _ (Inv_step s o I)). rewrite (excess_step s o I). reflexivity.
Qed.

Theorem escrow_exact bal now sw p ops r id d :
  (forall x d, 0 <= bal x d) -> coins_ok (p_cfee p) None = true -> coins_ok (p_bfee p) None = true ->
  let s := run (init_state bal now sw p) ops in
  st_bal s (Escrow r id) d = owed s r id d + ghost (init_state bal now sw p) ops (bal (Escrow r id) d) r id d
  /\ 0 <= ghost (init_state bal now sw p) ops (bal (Escrow r id) d) r id d.
Proof.
  intros Hb H1 H2 s.
  pose proof (Inv_init bal now sw p Hb H1 H2) as I0.
  pose proof (excess_run ops _ I0 r id d) as E. fold s in E.
  assert (E0 : excess (init_state bal now sw p) r id d = bal (Escrow r id) d).
  { unfold excess, owed. cbn. lia. }
  rewrite E0 in E. rewrite <- E. unfold excess. split; [lia|].
  pose proof (Inv_run ops _ I0) as I. fold s in I. destruct (inv_escrow _ I) as [_ He].
  specialize (He r id d). lia.
Qed.

Definition no_deposit (r : role) (id d : N) (o : op) : Prop :=
  match o with OSend _ to d' _ => to <> Escrow r id \/ d' <> d | _ => True end.
(* the plain form of the property text: no send to that account at all *)
Definition no_send_to (r : role) (id : N) (o : op) : Prop :=
  match o with OSend _ to _ _ => to <> Escrow r id | _ => True end.

Lemma no_send_no_deposit r id d ops : Forall (no_send_to r id) ops -> Forall (no_deposit r id d) ops.
Proof. apply Forall_impl. intros o. destruct o; cbn; auto. Qed.

Lemma donation_no_deposit r id d o out : no_deposit r id d o -> donation o out r id d = 0.
Proof.
  destruct o; try reflexivity. cbn [no_deposit donation]. intros H. destruct out; try reflexivity.
  destruct (addr_eqb to (Escrow r id) && N.eqb d d0) eqn:E; [|reflexivity].
  apply andb_true_iff in E. destruct E as [E1 E2].
  apply EqbFacts.addr_eqb_eq in E1. apply N.eqb_eq in E2.
  destruct H as [H|H]; [contradiction|congruence].
Qed.

Theorem ghost_no_deposits ops : forall s r id d,
  Forall (no_deposit r id d) ops -> ghost s ops 0 r id d = 0.
Proof.
  induction ops as [|o ops IH]; cbn [ghost]; intros s r id d H; [reflexivity|].
  inversion H as [|? ? Ho Hops]; subst.
  rewrite (donation_no_deposit r id d o _ Ho). destruct (sweepsP _ _ _ _ _); apply IH; exact Hops.
Qed.

Theorem escrow_exact_no_deposits bal now sw p ops r id d :
  (forall x d, 0 <= bal x d) -> coins_ok (p_cfee p) None = true -> coins_ok (p_bfee p) None = true ->
  bal (Escrow r id) d = 0 -> Forall (no_deposit r id d) ops ->
  let s := run (init_state bal now sw p) ops in st_bal s (Escrow r id) d = owed s r id d.
Proof.
  intros Hb H1 H2 H0 Hops s.
  destruct (escrow_exact bal now sw p ops r id d Hb H1 H2) as [E _]. fold s in E.
  rewrite H0, ghost_no_deposits in E by exact Hops. lia.
Qed.

Lemma owed_same s r id d : Checkers.owed s r id d = owed s r id d.
Proof. reflexivity. Qed.
Lemma excess_same s r id d : Checkers.excess s r id d = excess s r id d.
Proof. reflexivity. Qed.

Lemma donated_same s o out s' xs tr f g r id d :
  Checkers.donated {| Checkers.t_pre := s; Checkers.t_op := o; Checkers.t_class := Checkers.class_of out;
                      Checkers.t_xfers := xs; Checkers.t_trace := tr; Checkers.t_post := s';
                      Checkers.t_fault := f; Checkers.t_gen_valid := g |} r id d
  = donation o out r id d.
Proof.
  unfold Checkers.donated, donation. cbn [Checkers.t_op Checkers.t_class].
  destruct o; try reflexivity. destruct out; try reflexivity.
  cbn [Checkers.class_of]. destruct (N.eqb code E_PANIC); reflexivity.
Qed.

Lemma sweeps_same s o c s' xs tr f g r id d :
  Checkers.sweeps {| Checkers.t_pre := s; Checkers.t_op := o; Checkers.t_class := c;
                     Checkers.t_xfers := xs; Checkers.t_trace := tr; Checkers.t_post := s';
                     Checkers.t_fault := f; Checkers.t_gen_valid := g |} r id d
  = sweepsP s s' r id d.
Proof. reflexivity. Qed.

Theorem c01_ok_model s o : Inv s -> Checkers.c01_ok (Checkers.model_trans s o) = true.
Proof.
  intros I. pose proof (FixedFacts.Inv_ghost_reset s I) as I0.
  rewrite FixedFacts.model_trans_eq. cbv zeta.
  unfold Checkers.c01_ok. cbn [Checkers.t_post Checkers.t_pre].
  apply forallb_forall. intros id _. apply forallb_forall.
  intros r _. apply forallb_forall. intros d _.
  cbv zeta. rewrite sweeps_same, donated_same, !excess_same.
  apply andb_true_iff. split.
  - apply Z.leb_le. destruct (inv_escrow _ (Inv_step _ o I0)) as [_ He].
    specialize (He r id d). unfold excess. lia.
  - rewrite (excess_step _ o I0 r id d), (sweepsP_conv_l s (FixedFacts.ghost_reset s) _ r id d eq_refl).
    rewrite (excess_ext s (FixedFacts.ghost_reset s)) by reflexivity.
    destruct (sweepsP s _ r id d); apply Z.eqb_refl.
Qed.

(* C02: the conjuncts of the complete executable statement Checkers.c02_all beyond c02_ok hold of every model
   transition from a state satisfying Inv; c02_all_model, which puts them beside c02_ok, carries the hypothesis
   `tracked` of that link.  Both are read off the exact escrow equation Checkers.c01_ok (C01), which says of every
   escrow account: if the operation sweeps it the excess afterwards is 0, else the excess changes by the donation only.
   c02_swept ("nothing is stranded") is the first clause, c02_vested the second for the vesting escrow, which is never
   swept.  c04_batch is Chk04.c04_batch_model. *)
From Coq Require Import ZArith List Bool.
From FR Require Import Types Checkers.
From FR.Proofs Require Import ListFacts InvDefs ExcessAll LedgerChecker.
From FR.Proofs Require Chk04.
Import ListNotations.
Open Scope Z_scope.

Lemma c01_implies_swept t : c01_ok t = true -> c02_swept t = true.
Proof.
  unfold c01_ok, c02_swept. apply forallb_impl. intros id _.
  apply forallb_impl. intros r _.
  apply forallb_impl. intros d _ H. cbv zeta in H.
  apply andb_true_iff in H. destruct H as [_ H].
  destruct (sweeps t r id d); [exact H|reflexivity].
Qed.

Theorem c02_swept_model s o : Inv s -> c02_swept (model_trans s o) = true.
Proof. intros I. apply c01_implies_swept, c01_ok_model, I. Qed.

Lemma c01_implies_vested t : c01_ok t = true -> c02_vested t = true.
Proof.
  unfold c01_ok, c02_vested. apply forallb_impl. intros id _ H.
  rewrite forallb_forall in H. assert (Hv : In Vesting roles) by (unfold roles; cbn; tauto).
  specialize (H Vesting Hv). revert H. apply forallb_impl.
  intros d _ H. cbv zeta in H.
  apply andb_true_iff in H. destruct H as [_ H].
  destruct (sweeps t Vesting id d); [reflexivity|exact H].
Qed.

Theorem c02_vested_model s o : Inv s -> c02_vested (model_trans s o) = true.
Proof. intros I. apply c01_implies_vested, c01_ok_model, I. Qed.

Theorem c02_all_model s o : Inv s -> tracked s o -> c02_all (model_trans s o) = true.
Proof.
  intros I T. unfold c02_all.
  apply andb_true_iff. split; [apply andb_true_iff; split; [apply andb_true_iff; split|]|].
  - apply c02_ok_model; assumption.
  - apply c02_swept_model, I.
  - apply Chk04.c04_batch_model, I.
  - apply c02_vested_model, I.
Qed.

(* C17: the hook dispatcher (Step.dispatch, MultiFundraisingHooks of x/fundraising/types/hooks.go) and call_hook in
   closed form: every listener in order, up to and including the first that vetoes. *)
From Coq Require Import NArith List Lia.
From FR Require Import Types Step Spec Checkers.
From FR.Proofs Require Import ResFacts.
Import ListNotations.
Open Scope Z_scope.

Definition mkcall (i kind : N) (args : list Z) : hookcall :=
  {| h_listener := i; h_kind := kind; h_args := args |}.
Definition vetoes (kind : N) (l : list N) : bool := existsb (N.eqb kind) l.

Fixpoint calls_from (i : N) (n : nat) (kind : N) (args : list Z) : list hookcall :=
  match n with
  | O => []
  | S m => mkcall i kind args :: calls_from (i + 1)%N m kind args
  end.

Fixpoint first_veto (kind : N) (ls : list (list N)) : option nat :=
  match ls with
  | [] => None
  | l :: r => if vetoes kind l then Some O else option_map S (first_veto kind r)
  end.

Lemma dispatch_closed : forall ls i kind args,
  dispatch ls i kind args =
  match first_veto kind ls with
  | None => (true, calls_from i (length ls) kind args)
  | Some k => (false, calls_from i (S k) kind args)
  end.
Proof.
  induction ls as [|l r IH]; intros i kind args.
  - reflexivity.
  - cbn [dispatch first_veto length]. unfold vetoes.
    destruct (existsb (N.eqb kind) l) eqn:Hv.
    + reflexivity.
    + rewrite IH. destruct (first_veto kind r) as [k|]; reflexivity.
Qed.

Lemma calls_from_map : forall n i kind args,
  calls_from i n kind args = map (fun k => mkcall (i + N.of_nat k) kind args) (seq 0 n).
Proof.
  induction n as [|n IH]; intros i kind args; [reflexivity|].
  cbn [calls_from seq map]. rewrite N.add_0_r. f_equal.
  rewrite IH, <- seq_shift, map_map. apply map_ext. intros k. f_equal. lia.
Qed.

Lemma calls_from_length : forall n i kind args, length (calls_from i n kind args) = n.
Proof. intros n i kind args. rewrite calls_from_map, map_length. apply seq_length. Qed.

Lemma calls_from_nth : forall n i kind args k,
  (k < n)%nat -> nth_error (calls_from i n kind args) k = Some (mkcall (i + N.of_nat k) kind args).
Proof.
  induction n as [|n IH]; intros i kind args k Hk; [lia|].
  destruct k as [|k]; cbn [calls_from nth_error].
  - now rewrite N.add_0_r.
  - rewrite IH by lia. f_equal. f_equal. lia.
Qed.

Lemma calls_from_nth_inv : forall n i kind args k c,
  nth_error (calls_from i n kind args) k = Some c -> (k < n)%nat /\ c = mkcall (i + N.of_nat k) kind args.
Proof.
  intros n i kind args k c H.
  assert (Hk : (k < n)%nat).
  { rewrite <- (calls_from_length n i kind args). apply nth_error_Some. congruence. }
  split; [exact Hk|]. rewrite calls_from_nth in H by exact Hk. congruence.
Qed.

Lemma calls_from_snoc : forall n i kind args,
  calls_from i (S n) kind args = calls_from i n kind args ++ [mkcall (i + N.of_nat n) kind args].
Proof. intros n i kind args. rewrite !calls_from_map, seq_S, map_app. reflexivity. Qed.

Lemma calls_from_In : forall n i kind args c,
  In c (calls_from i n kind args) -> h_kind c = kind /\ h_args c = args.
Proof.
  intros n i kind args c H. rewrite calls_from_map in H.
  apply in_map_iff in H as [k [<- _]]. split; reflexivity.
Qed.

Lemma first_veto_None : forall kind ls,
  first_veto kind ls = None <-> (forall l, In l ls -> vetoes kind l = false).
Proof.
  induction ls as [|l r IH]; cbn [first_veto In].
  - split; [intros _ l [] | reflexivity].
  - destruct (vetoes kind l) eqn:Hv.
    + split; [discriminate|]. intros H. specialize (H l (or_introl eq_refl)). congruence.
    + destruct (first_veto kind r) as [k|] eqn:Hf; cbn [option_map].
      * split; [discriminate|]. intros H.
        destruct IH as [_ IH2]. specialize (IH2 (fun l0 Hl0 => H l0 (or_intror Hl0))). discriminate.
      * split; [|reflexivity]. intros _ l0 [Hl0|Hl0]; [now subst l0|].
        apply (proj1 IH eq_refl). exact Hl0.
Qed.

Lemma first_veto_Some_inv : forall kind ls k,
  first_veto kind ls = Some k ->
  (exists l, nth_error ls k = Some l /\ vetoes kind l = true) /\
  (forall j l, (j < k)%nat -> nth_error ls j = Some l -> vetoes kind l = false).
Proof.
  induction ls as [|l r IH]; intros k H; cbn [first_veto] in H; [discriminate|].
  destruct (vetoes kind l) eqn:Hv.
  - injection H as <-. split; [exists l; split; [reflexivity|exact Hv] | intros j l0 Hj; lia].
  - destruct (first_veto kind r) as [k0|]; [|discriminate]. injection H as <-.
    destruct (IH k0 eq_refl) as [[l0 [Hn Hl0]] Hlt]. split.
    + exists l0. split; [exact Hn | exact Hl0].
    + intros j l1 Hj Hn1. destruct j as [|j]; [cbn in Hn1; congruence|].
      apply (Hlt j l1); [lia | exact Hn1].
Qed.

Lemma dispatch_ok_iff : forall ls i kind args ok cs,
  dispatch ls i kind args = (ok, cs) ->
  (ok = true <-> forall l, In l ls -> existsb (N.eqb kind) l = false).
Proof.
  intros ls i kind args ok cs H. rewrite dispatch_closed in H.
  destruct (first_veto kind ls) as [k|] eqn:Hf; injection H as <- <-.
  - split; [discriminate|]. intros Hall. apply first_veto_None in Hall. congruence.
  - split; [|reflexivity]. intros _. apply first_veto_None. exact Hf.
Qed.

Lemma dispatch_ok_calls : forall ls i kind args cs,
  dispatch ls i kind args = (true, cs) -> cs = calls_from i (length ls) kind args.
Proof.
  intros ls i kind args cs H. rewrite dispatch_closed in H.
  destruct (first_veto kind ls) as [k|]; [discriminate | congruence].
Qed.

Lemma dispatch_ok_length : forall ls i kind args cs,
  dispatch ls i kind args = (true, cs) -> length cs = length ls.
Proof. intros ls i kind args cs H. apply dispatch_ok_calls in H as ->. apply calls_from_length. Qed.

Lemma dispatch_veto_not_called : forall ls i kind args cs,
  dispatch ls i kind args = (false, cs) ->
  exists k, first_veto kind ls = Some k /\
    forall c, In c cs -> (i <= h_listener c <= i + N.of_nat k)%N.
Proof.
  intros ls i kind args cs H. rewrite dispatch_closed in H.
  destruct (first_veto kind ls) as [k|] eqn:Hf; [|discriminate]. injection H as <-.
  exists k. split; [reflexivity|]. intros c Hc. apply In_nth_error in Hc as [j Hj].
  apply (calls_from_nth_inv (S k)) in Hj as [Hlt ->]. cbn [mkcall h_listener]. lia.
Qed.

Lemma first_veto_existsb : forall kind ls,
  existsb (vetoes kind) ls = match first_veto kind ls with None => false | Some _ => true end.
Proof.
  intros kind ls. induction ls as [|l r IH]; cbn [existsb first_veto]; [reflexivity|].
  destruct (vetoes kind l); cbn [orb]; [reflexivity|]. rewrite IH. destruct (first_veto kind r); reflexivity.
Qed.

Lemma no_veto_closed : forall s kind,
  no_veto s kind = match first_veto kind (st_listeners s) with None => true | Some _ => false end.
Proof.
  intros s kind. unfold no_veto.
  change (existsb (fun l => existsb (N.eqb kind) l) (st_listeners s)) with (existsb (vetoes kind) (st_listeners s)).
  rewrite first_veto_existsb. destruct (first_veto kind (st_listeners s)); reflexivity.
Qed.

Definition all_calls (s : state) (kind : N) (args : list Z) : list hookcall :=
  calls_from 0 (length (st_listeners s)) kind args.

Lemma all_calls_expected : forall s kind args,
  all_calls s kind args = expected_trace s [(kind, args)].
Proof.
  intros s kind args. unfold all_calls, expected_trace. cbn [flat_map fst snd]. rewrite app_nil_r.
  rewrite calls_from_map. apply map_ext. intros k. reflexivity.
Qed.

Lemma call_hook_closed : forall s kind args,
  call_hook s kind args =
  match first_veto kind (st_listeners s) with
  | None => Ok (with_trace s (st_trace s ++ all_calls s kind args))
  | Some k => Err E_HOOK (st_trace s ++ calls_from 0 (S k) kind args)
  end.
Proof.
  intros s kind args. unfold call_hook, all_calls. rewrite dispatch_closed.
  destruct (first_veto kind (st_listeners s)); reflexivity.
Qed.

(* the state a hook leaves when no listener vetoes *)
Definition hooked (s : state) (k : N) (args : list Z) : state :=
  with_trace s (st_trace s ++ all_calls s k args).

Lemma yields_hook s k args : yields (call_hook s k args) (no_veto s k = true) (hooked s k args).
Proof.
  intros x. rewrite call_hook_closed, no_veto_closed. unfold hooked. destruct (first_veto k (st_listeners s)).
  - split; [discriminate|intros [C _]; discriminate C].
  - split; [intros H; injection H as <-; split; reflexivity|intros [_ ->]; reflexivity].
Qed.


(* Checker link for C05: the executable monitor Checkers.c05_ok holds of every transition of the model from a state
   satisfying the invariant.  Settlement clause: ChkSettle.settling_facts + the dues of LedgerSettle + the allocation
   bounds of MatchConseq; acceptance clause: fixed_bid_post, the state an accepted fixed price bid leaves as the term
   TxFacts.place_post with the conditions it met (TxFacts.fixed_valid), which the fixed price clause of c04_ok reads
   as well. *)
From Coq Require Import ZArith NArith List Bool Lia.
From FR Require Import Types Match Step Model Spec Checkers.
From FR.Proofs Require Import ListFacts InvDefs EscrowBase Ledger LedgerCharges LedgerSettle ChkSettle.
From FR.Proofs Require GenesisSort FixedFacts MatchSweep MatchConseq InvStaticBase FrameFacts TxFacts PrecondFacts.
Import ListNotations.
Open Scope Z_scope.

Lemma cap_of_find_allowed s id u :
  cap_of (allowed_of s id) u = match find_allowed s id u with Some al => al_max al | None => 0 end.
Proof. unfold cap_of, allowed_of, find_allowed. rewrite ListFacts.find_filter_and. reflexivity. Qed.

(* an accepted fixed price bid: the auction it is for, the conditions it met, and the state it leaves as a term *)
Theorem fixed_bid_post s m u id price d amt :
  check_basic m = Some (CPlaceBid u id BFixed price d amt) -> fst (step s (OTx m)) = Accepted ->
  exists a, find_auction s id = Some a /\ TxFacts.fixed_valid s a (TxFacts.new_bid s u id BFixed price d amt)
            /\ 0 < price /\ 0 < amt
            /\ snd (step s (OTx m)) = TxFacts.place_post s a (TxFacts.new_bid s u id BFixed price d amt).
Proof.
  intros CB Hacc.
  pose proof (TxFacts.check_basic_wf m _ CB) as Hpos. cbn [TxFacts.cmsg_wf] in Hpos.
  destruct (TxFacts.accepted_handle s m Hacc) as (c & Hc & Hp). rewrite CB in Hc. injection Hc as <-. cbn [handle] in Hp.
  apply TxFacts.place_bid_iff in Hp. destruct Hp as (a & Fa & G & E).
  exists a. split; [exact Fa|]. split; [exact (TxFacts.pl_valid G)|]. split; [apply Hpos|]. split; [apply Hpos|exact E].
Qed.

Lemma sum_ind_le (l : list N) (v : N) (c : Z) :
  NoDup l -> 0 <= c -> sumZ (map (fun u => if N.eqb u v then c else 0) l) <= c.
Proof.
  intros ND Hc. rewrite (sumZ_pick (fun u => N.eqb u v)); [destruct (existsb _ l); lia|exact ND|].
  intros x y _ _ Ex Ey. apply N.eqb_eq in Ex, Ey. congruence.
Qed.

Lemma sum_members_le (B l : list N) (f : N -> Z) :
  NoDup l -> (forall u, 0 <= f u) ->
  sumZ (map (fun u => if existsb (N.eqb u) B then f u else 0) l) <= total_of B f.
Proof.
  intros ND Hf. unfold total_of. induction B as [|v B IH].
  - cbn [existsb map]. rewrite sumZ_zeros. cbn. lia.
  - cbn [map]. rewrite sumZ_cons. pose proof (sum_ind_le l v (f v) ND (Hf v)) as H1.
    assert (Hle : sumZ (map (fun u => if existsb (N.eqb u) (v :: B) then f u else 0) l)
                  <= sumZ (map (fun u => if N.eqb u v then f v else 0) l)
                     + sumZ (map (fun u => if existsb (N.eqb u) B then f u else 0) l)).
    { rewrite <- sumZ_map_add. apply sumZ_map_le. intros x _. cbn [existsb]. destruct (N.eqb x v) eqn:E; cbn [orb].
      - apply N.eqb_eq in E. subst x. destruct (existsb (N.eqb v) B); specialize (Hf v); lia.
      - destruct (existsb (N.eqb x) B); lia. }
    lia.
Qed.

Lemma users_nodup : NoDup users.
Proof. apply InvStaticBase.ids_upto_nodup. Qed.

Theorem c05_ok_model s o : Inv s -> c05_ok (model_trans s o) = true.
Proof.
  intros I. unfold c05_ok. apply andb_true_iff. split.
  - (* the settlement clause *)
    apply forallb_forall. intros [a a'] Hin.
    destruct (settling_facts s o a a' I Hin) as (mi & wr & V). pose proof (sv_book V) as BW. pose proof (sv_supply V) as Hsup.
    pose proof (sv_settles V) as Hw. pose proof (sv_dues V) as D. pose proof (sv_batch V) as Hbat.
    cbv zeta. cbn [fst snd]. rewrite FixedFacts.model_pre.
    set (tr := model_trans s o) in *. set (bs := bids_of s (a_id a)) in *.
    set (others := filter (fun u => negb (N.eqb u (a_auctioneer a))) users).
    assert (Hoth : forall u, In u others ->
              received tr (a_id a) (a_sell_denom a) u = if existsb (N.eqb u) (bidders_of bs) then mi_alloc mi u else 0).
    { intros u Hu. apply filter_In in Hu. destruct Hu as [_ Hu]. apply negb_true_iff in Hu.
      unfold received. rewrite (sv_received V u), (N.eqb_sym (a_auctioneer a) u), Hu. fold bs. lia. }
    pose proof (du_alloc _ _ _ _ D) as Hal.
    apply andb_true_iff. split.
    + apply Z.leb_le. rewrite (sumZ_map_ext _ _ others Hoth).
      pose proof (sum_members_le (bidders_of bs) others (mi_alloc mi) (NoDup_filter _ users_nodup) Hal) as H1.
      pose proof (du_alloc_sum _ _ _ _ D) as H2. rewrite (du_bidders _ _ _ _ D) in H2. fold bs in H2. lia.
    + apply forallb_forall. intros u Hu. rewrite (Hoth u Hu).
      destruct wr.
      * (* batch *)
        destruct (settles_with_batch _ _ _ _ _ Hw) as (Ty & _ & order & HV & HC). rewrite Ty.
        destruct (Hbat eq_refl) as [Epr _]. rewrite Epr.
        destruct (MatchConseq.batch_alloc_bounds a _ _ order _ mi BW HV Hsup HC) as (B1 & B2 & _).
        specialize (B1 u). specialize (B2 u). unfold MatchSweep.asked in B2.
        apply andb_true_iff. split; apply Z.leb_le; destruct (existsb (N.eqb u) (bidders_of bs)); lia.
      * (* fixed price *)
        destruct (settles_with_fixed _ _ _ _ _ Hw) as [Ty _]. rewrite Ty.
        apply Z.eqb_eq. destruct (du_fixed _ _ _ _ D eq_refl u) as [E _].
        destruct (existsb (N.eqb u) (bidders_of bs)) eqn:Ex; [exact E|].
        rewrite (not_bidder_filter _ _ Ex). reflexivity.
  - (* the acceptance clause *)
    rewrite FixedFacts.model_trans_eq. cbv zeta. cbn [t_pre t_op t_class t_post].
    destruct o as [m| | | | | | |]; try reflexivity.
    destruct (class_of _) eqn:Hacc; try reflexivity. apply FixedFacts.class_KOk in Hacc.
    destruct (check_basic m) as [c|] eqn:CB; [|reflexivity].
    destruct c as [| | |u id bt price d amt| | |]; try reflexivity. destruct bt; try reflexivity.
    destruct (fixed_bid_post _ m u id price d amt CB Hacc) as (a & Fa & (_ & _ & _ & _ & al & Eal & Cap) & _ & _ & E).
    destruct (FrameFacts.find_auction_some _ _ _ Fa) as [_ <-].
    rewrite E, (TxFacts.place_post_find _ a _ Fa). cbn [a_pay_denom set_remaining]. apply Z.leb_le.
    (* the bids of the auction: those before and the stored bid, which is the bidder's *)
    set (b0 := TxFacts.new_bid (FixedFacts.ghost_reset s) u (a_id a) BFixed price d amt) in *.
    unfold bids_of at 1. change (st_bids (TxFacts.place_post (FixedFacts.ghost_reset s) a b0)) with (st_bids s ++ [TxFacts.stored_bid a b0]).
    rewrite !filter_app, map_app, sumZ_app. cbn [filter]. change (b_auction (TxFacts.stored_bid a b0)) with (a_id a).
    rewrite N.eqb_refl. cbn [filter]. change (b_bidder (TxFacts.stored_bid a b0)) with u. rewrite N.eqb_refl.
    cbn [map]. rewrite sumZ_cons. cbn [sumZ fold_right]. rewrite Z.add_0_r, cap_of_find_allowed.
    change (find_allowed s (a_id a) u) with (find_allowed (FixedFacts.ghost_reset s) (a_id a) (b_bidder b0)). rewrite Eal.
    exact Cap.
Qed.

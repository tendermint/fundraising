(* The static parts of the global invariant (InvS: InvDefs J1-J4, J9-J11) hold initially and are preserved by every
   operation other than GENESIS: by the cases of TxFacts.tx_shape, one pure update (InvStaticUpd) each, for transactions,
   API calls, bank sends and listener registrations (InvS_tx), and by InvStaticBlock for blocks.  No hypothesis on the
   block oracles is needed: a block with an invalid sweep order fails, and a failed block changes only the time and the
   trace.  Names: InvS_step, InvS_run, InvS_reachable exclude GENESIS; InvStaticGenesis.v has GENESIS and with it
   InvS_step_all, InvS_run_all, InvS_reachable_all for every operation (InvAll.v names the other way: Inv_step covers
   every operation, Inv_step_nogen all but GENESIS). *)
From Coq Require Import ZArith NArith List Bool Lia.
From FR Require Import Types Bank Match Step Genesis Model Spec.
From FR.Proofs Require Import EqbFacts HookFacts FrameFacts TxFacts DecFacts InvDefs.
From FR.Proofs Require Export InvStaticBase InvStaticUpd InvStaticBlock.
Import ListNotations.
Open Scope Z_scope.

(* both creating handlers: the counter moves, the record is appended; bank and trace are not read *)
Lemma InvS_create_post s xs k1 k2 args a :
  InvS s -> a_id a = st_aseq s -> auction_wf a -> InvS (create_post s xs k1 k2 args a).
Proof.
  intros I Hid W.
  apply (InvS_ceq (with_auctions (with_aseq s (st_aseq s + 1)) (st_auctions s ++ [a]))); [repeat split|].
  apply InvS_create; assumption.
Qed.

Lemma InvS_place_post s u bt price d amt a :
  InvS s -> 0 < price -> 0 < amt -> find_auction s (a_id a) = Some a -> a_status a = Started ->
  atype_eqb (a_type a) Batch && (price <? a_min_price a) = false ->
  let b0 := new_bid s u (a_id a) bt price d amt in
  bid_valid s a b0 -> InvS (place_post s a b0).
Proof.
  intros I Hp Ha F St Hmin b0 V.
  assert (Hmin' : a_type a = Batch -> a_min_price a <= price).
  { intros T. rewrite T in Hmin. apply Z.ltb_ge. exact Hmin. }
  pose proof (InvS_find_wf s _ a I F) as W.
  assert (Appended : forall bt0, a_type a = Batch ->
            (bt0 = BWorth /\ d = a_pay_denom a) \/ (bt0 = BMany /\ d = a_sell_denom a) ->
            let nb := new_bid s u (a_id a) bt0 price d amt in
            InvS (with_bids (with_bseq s (upd (st_bseq s) (a_id a) (b_id nb))) (st_bids s ++ [nb]))).
  { intros bt0 T Hd nb. apply (InvS_place s a nb); try assumption; try reflexivity.
    unfold bid_terms_ok. rewrite T. split; [exact Hd|exact (Hmin' T)]. }
  unfold place_post, stored_bid, bid_valid in *. subst b0. destruct bt; cbn [b_type new_bid] in V |- *.
  - (* fixed price: the remainder of the auction goes down by what the bid buys *)
    destruct V as (T & Hd & Hpr & Hrem & _). cbn [b_denom b_price] in Hd, Hpr.
    set (b0 := new_bid s u (a_id a) BFixed price d amt) in *.
    set (q := sell_amount (a_pay_denom a) b0) in *.
    assert (Hq : 0 <= q) by (apply sell_amount_nonneg; assumption).
    set (a' := set_remaining a (a_remaining a - q)). set (nb := set_b_matched b0 (0 <? q)).
    assert (IP : InvS (put_auction s a')).
    { apply (InvS_put_auction s a); [exact I|exact F| |].
      - apply upd_ok_same_status; try reflexivity. rewrite St. discriminate.
      - apply auction_wf_set_remaining; [exact T| |exact W]. destruct (awf_fixed a W T) as (_ & _ & _ & _ & R). lia. }
    apply (InvS_ceq (with_bids (with_bseq (put_auction s a') (upd (st_bseq s) (a_id a) (b_id nb))) (st_bids s ++ [nb])));
      [repeat split|].
    apply (InvS_place (put_auction s a') a' nb); try assumption.
    + exact (find_auction_put_same s a' a F).
    + reflexivity.
    + unfold bid_terms_ok. cbn [a_type a' set_remaining]. rewrite T. repeat split; assumption.
    + cbn [a_type a' set_remaining]. rewrite T. discriminate.
  - (* a batch bid by worth: the record is appended, nothing else that InvS reads changes *)
    destruct V as (T & Hd & _). cbn [b_denom] in Hd.
    set (nb := new_bid s u (a_id a) BWorth price d amt).
    apply (InvS_ceq (with_bids (with_bseq s (upd (st_bseq s) (a_id a) (b_id nb))) (st_bids s ++ [nb]))); [repeat split|].
    exact (Appended BWorth T (or_introl (conj eq_refl Hd))).
  - (* by quantity: the same, the coin named is the selling one *)
    destruct V as (T & Hd & _). cbn [b_denom] in Hd.
    set (nb := new_bid s u (a_id a) BMany price d amt).
    apply (InvS_ceq (with_bids (with_bseq s (upd (st_bseq s) (a_id a) (b_id nb))) (st_bids s ++ [nb]))); [repeat split|].
    exact (Appended BMany T (or_intror (conj eq_refl Hd))).
Qed.

(* entries with positive maxima stored for an auction that is there *)
Lemma InvS_entries id a l : forall s,
  InvS s -> find_auction s id = Some a -> Forall entry_pos l -> InvS (fold_left (put_entry id) l s).
Proof.
  induction l as [|[[ea who] max] l IH]; cbn [fold_left]; intros s I F H; [exact I|].
  apply Forall_cons_iff in H. destruct H as [H0 H]. destruct who as [up u|]; [|destruct H0].
  destruct max as [m|]; [|destruct H0]. cbn [entry_pos put_entry] in *.
  apply IH; [eapply InvS_put_allowed; eassumption| |exact H]. rewrite put_allowed_eq. exact F.
Qed.

(* every operation but blocks and GENESIS, from the state it leaves: bank and trace are not read *)
Theorem InvS_tx s o out s' : InvS s -> tx_shape s o out s' -> InvS s'.
Proof.
  intros I Sh. shape_names Sh.
  - (* SRej *) apply InvS_with_trace, I.
  - (* SSend *) apply InvS_with_bank, I.
  - (* SListeners *) apply InvS_with_listeners, I.
  - (* SParams *) apply InvS_with_params; assumption.
  - (* SCreate *) apply InvS_create_post; assumption.
  - (* SCancel *) pose proof (find_auction_some _ _ _ F0) as [_ Hid]. pose proof (InvS_find_wf s _ a0 I F0) as W0.
    apply (InvS_put_auction _ a0); [apply InvS_with_trace, InvS_with_bank, I|rewrite Hid; exact F0| |].
    + unfold upd_ok, cancel_of. destruct (a_type a0) eqn:T; cbn; repeat split; try exact T; intros _; exact S0.
    + unfold cancel_of. apply auction_wf_set_status. destruct (a_type a0) eqn:T; [|exact W0].
      apply auction_wf_set_remaining; [exact T| |exact W0]. pose proof (awf_amt a0 W0). lia.
  - (* SPlace *) pose proof (find_auction_some _ _ _ F0) as [_ <-].
    exact (InvS_place_post s u bt price d amt a0 I (proj1 Hpos) (proj2 Hpos) F0 S0 Hmin V).
  - (* SModify *) apply (InvS_ceq (put_bid s (set_b_terms b0 p amt))); [repeat split|].
    exact (InvS_set_b_terms s id bid a0 b0 p amt I Fb F0 Ty Hmin (proj1 Hpos) (proj2 Hpos)).
  - (* SAllowed *) exact (InvS_entries id a0 l _ (InvS_with_trace _ _ I) F0 Hl).
Qed.

Theorem InvS_step_tx s o : is_block o = false -> o <> OGenesis -> InvS s -> InvS (snd (step s o)).
Proof. intros B Hg I. exact (InvS_tx s o _ _ I (step_shape s o B Hg)). Qed.

Theorem InvS_init bal now sw p :
  coins_ok (p_cfee p) None = true -> coins_ok (p_bfee p) None = true -> InvS (init_state bal now sw p).
Proof.
  intros H1 H2. split.
  - reflexivity.
  - constructor.
  - split; [constructor|]. intros id. reflexivity.
  - split; constructor.
  - intros id. reflexivity.
  - split; assumption.
  - split.
    + intros id _. repeat split.
    + intros a [].
Qed.

Theorem InvS_step s o : InvS s -> o <> OGenesis -> InvS (snd (step s o)).
Proof.
  intros I Hg. destruct (is_block o) eqn:B; [apply InvS_step_block|apply InvS_step_tx]; assumption.
Qed.

Corollary InvS_step_oracle s o : InvS s -> oracle_ok s o -> o <> OGenesis -> InvS (snd (step s o)).
Proof. intros I _ Hg. apply InvS_step; assumption. Qed.

Corollary ids_seq_step s o : InvS s -> o <> OGenesis -> ids_seq (snd (step s o)).
Proof. intros I Hg. apply is_ids, InvS_step; assumption. Qed.
Corollary auctions_wf_step s o : InvS s -> o <> OGenesis -> auctions_wf (snd (step s o)).
Proof. intros I Hg. apply is_auctions, InvS_step; assumption. Qed.
Corollary bids_wf_step s o : InvS s -> o <> OGenesis -> bids_wf (snd (step s o)).
Proof. intros I Hg. apply is_bids, InvS_step; assumption. Qed.
Corollary allowed_wf_step s o : InvS s -> o <> OGenesis -> allowed_wf (snd (step s o)).
Proof. intros I Hg. apply is_allowed, InvS_step; assumption. Qed.
Corollary mlen_inv_step s o : InvS s -> o <> OGenesis -> mlen_inv (snd (step s o)).
Proof. intros I Hg. apply is_mlen, InvS_step; assumption. Qed.
Corollary params_wf_step s o : InvS s -> o <> OGenesis -> params_wf (snd (step s o)).
Proof. intros I Hg. apply is_params, InvS_step; assumption. Qed.
Corollary fresh_inv_step s o : InvS s -> o <> OGenesis -> fresh_inv (snd (step s o)).
Proof. intros I Hg. apply is_fresh, InvS_step; assumption. Qed.

Theorem InvS_run : forall ops s, InvS s -> Forall (fun o => o <> OGenesis) ops -> InvS (run s ops).
Proof. intros ops s I HF. revert I. exact (run_ind _ _ (fun s0 o Hg I0 => InvS_step s0 o I0 Hg) ops s HF). Qed.

(* oracle_ok of every operation of a run, at the state it is applied to; InvS itself does not need it (InvS_run) *)
Fixpoint oracles_ok (s : state) (ops : list op) : Prop :=
  match ops with
  | [] => True
  | o :: rest => oracle_ok s o /\ oracles_ok (snd (step s o)) rest
  end.
Corollary InvS_run_oracles ops s :
  InvS s -> oracles_ok s ops -> Forall (fun o => o <> OGenesis) ops -> InvS (run s ops).
Proof. intros I _ HF. apply InvS_run; assumption. Qed.

Corollary InvS_reachable bal now sw p ops :
  coins_ok (p_cfee p) None = true -> coins_ok (p_bfee p) None = true ->
  Forall (fun o => o <> OGenesis) ops -> InvS (run (init_state bal now sw p) ops).
Proof. intros H1 H2 HF. apply InvS_run; [apply InvS_init; assumption|exact HF]. Qed.

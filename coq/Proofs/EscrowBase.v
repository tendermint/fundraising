(* For the escrow invariant J8 (C01/C02/C07): what the records owe out of the escrows of an auction (InvDefs.owed) in
   closed form, found or not, and what J8 says of the three escrows of a found auction (escrow_inv_own).  BankFacts is
   re-exported.  total_of, the sum over a list of bidders, stands here for the ledger files (Ledger, LedgerSettle), which
   import this file for it alone. *)
From Coq Require Import ZArith NArith List Bool Lia.
From FR Require Import Types Bank Match.
From FR.Proofs Require Import InvDefs.
From FR.Proofs Require Export BankFacts.
Import ListNotations.
Open Scope Z_scope.

Definition total_of (us : list N) (f : N -> Z) : Z := sumZ (map f us).

Lemma esc_eqb r j q k : addr_eqb (Escrow r j) (Escrow q k) = role_eqb r q && N.eqb j k. Proof. reflexivity. Qed.

Lemma owed_ext s s' :
  st_auctions s' = st_auctions s -> st_bids s' = st_bids s -> st_vqs s' = st_vqs s ->
  forall r id d, owed s' r id d = owed s r id d.
Proof.
  intros Ha Hb Hv r id d. unfold owed, find_auction, bids_of, vqs_of. now rewrite Ha, Hb, Hv.
Qed.
Lemma owed_some s r id d a :
  find_auction s id = Some a ->
  owed s r id d =
    match r with
    | Selling => if N.eqb d (a_sell_denom a) && is_open (a_status a) then a_sell_amt a else 0
    | Paying => if N.eqb d (a_pay_denom a) && status_eqb (a_status a) Started
                then sumZ (map (pay_amount (a_pay_denom a)) (bids_of s id)) else 0
    | Vesting => if N.eqb d (a_pay_denom a) && status_eqb (a_status a) VestingS
                 then sumZ (map v_amt (filter (fun v => negb (v_released v)) (vqs_of s id))) else 0
    end.
Proof. intros F. unfold owed. rewrite F. reflexivity. Qed.

Lemma owed_none s r id d : find_auction s id = None -> owed s r id d = 0.
Proof. intros F. unfold owed. rewrite F. reflexivity. Qed.

Lemma escrow_inv_own s id a :
  escrow_inv s -> find_auction s id = Some a ->
  (is_open (a_status a) = true -> a_sell_amt a <= st_bal s (Escrow Selling id) (a_sell_denom a)) /\
  (a_status a = Started ->
   sumZ (map (pay_amount (a_pay_denom a)) (bids_of s id)) <= st_bal s (Escrow Paying id) (a_pay_denom a)) /\
  (a_status a = VestingS ->
   sumZ (map v_amt (filter (fun v => negb (v_released v)) (vqs_of s id))) <= st_bal s (Escrow Vesting id) (a_pay_denom a)).
Proof.
  intros [_ E] Fa. split; [|split]; intros H.
  - specialize (E Selling id (a_sell_denom a)). rewrite (owed_some _ _ _ _ _ Fa), N.eqb_refl, H in E. exact E.
  - specialize (E Paying id (a_pay_denom a)). rewrite (owed_some _ _ _ _ _ Fa), N.eqb_refl, H in E. exact E.
  - specialize (E Vesting id (a_pay_denom a)). rewrite (owed_some _ _ _ _ _ Fa), N.eqb_refl, H in E. exact E.
Qed.

Lemma owed_with_bank s b xs r id d : owed (with_bank s b xs) r id d = owed s r id d.
Proof. now apply owed_ext. Qed.
Lemma owed_with_trace s tr r id d : owed (with_trace s tr) r id d = owed s r id d.
Proof. now apply owed_ext. Qed.


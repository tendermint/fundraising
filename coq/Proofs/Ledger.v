(* C02: the balance sheet is the replay of the recorded transfers.  The algebra of ledger_by (a state reached from
   another by a list xs of transfers with positive amounts appended to the ghost log st_xfers, the balances being the
   old ones with xs replayed); a replay adds to every balance the net of the list (apply_xfers_net; net and sum_xfers
   are Checkers', apply_xfers is VestingFacts'), which sums to zero over any duplicate-free set of accounts containing
   the endpoints (zero_sum_by).  Then the bank layer every exact characterisation is written in: banked s xs, pays b xs,
   and each bank primitive of the model yielding the banked state exactly when its list pays.  The step and run theorems
   are in LedgerCharges. *)
From Coq Require Import ZArith NArith List Bool Arith Lia.
From FR Require Import Dec Types Bank Match Step Genesis Model Checkers.
From FR.Proofs Require Import EscrowBase VestingFacts HookBase ListFacts EqbFacts ResFacts.
From FR.Proofs Require Export BankFacts.
From FR.Proofs Require FrameFacts.
Import ListNotations.
Open Scope Z_scope.

Definition pos_xs (xs : list xfer) : Prop := Forall (fun x => 0 < x_amt x) xs.

Record ledger_by (s s' : state) (xs : list xfer) : Prop := {
  lb_xfers : st_xfers s' = st_xfers s ++ xs;
  lb_bal : st_bal s' = apply_xfers (st_bal s) xs;
  lb_pos : pos_xs xs }.
Definition ledger (s s' : state) : Prop := exists xs, ledger_by s s' xs.
(* the bank part (balances and log) is equal.  The opposite notions: HookBase.nobank (everything but the bank is equal),
   BlockFacts.bt_only (nothing but bank and trace may differ) *)
Definition same_bank (s s' : state) : Prop := st_bal s' = st_bal s /\ st_xfers s' = st_xfers s.

Lemma same_bank_refl s : same_bank s s. Proof. split; reflexivity. Qed.
Lemma same_bank_sym s1 s2 : same_bank s1 s2 -> same_bank s2 s1.
Proof. intros [A1 B1]. split; congruence. Qed.
(* about same_bank, not about HookBase.nobank *)
Lemma nobank_same_bank_trace s tr : same_bank s (with_trace s tr). Proof. split; reflexivity. Qed.

Lemma ledger_by_nil s s' : same_bank s s' -> ledger_by s s' [].
Proof. intros [Hb Hx]. split; [rewrite app_nil_r; exact Hx|exact Hb|constructor]. Qed.
Lemma ledger_by_refl s : ledger_by s s [].
Proof. apply ledger_by_nil, same_bank_refl. Qed.
Lemma ledger_by_trans s1 s2 s3 xs ys :
  ledger_by s1 s2 xs -> ledger_by s2 s3 ys -> ledger_by s1 s3 (xs ++ ys).
Proof.
  intros [X1 B1 P1] [X2 B2 P2]. split.
  - rewrite X2, X1, app_assoc. reflexivity.
  - rewrite B2, B1. apply apply_xfers_app.
  - apply Forall_app. split; assumption.
Qed.
Lemma ledger_by_pre s0 s s' xs : same_bank s0 s -> ledger_by s s' xs -> ledger_by s0 s' xs.
Proof. intros [Hb Hx] [X B Pp]. split; [rewrite X, Hx; reflexivity|rewrite B, Hb; reflexivity|exact Pp]. Qed.

Lemma ledger_refl s : ledger s s. Proof. exists []. apply ledger_by_refl. Qed.
Lemma ledger_same s s' : same_bank s s' -> ledger s s'.
Proof. intros H. exists []. apply ledger_by_nil, H. Qed.
Lemma ledger_trans s1 s2 s3 : ledger s1 s2 -> ledger s2 s3 -> ledger s1 s3.
Proof. intros [xs H1] [ys H2]. exists (xs ++ ys). eapply ledger_by_trans; eassumption. Qed.
Lemma ledger_post s s' s'' : ledger s s' -> same_bank s' s'' -> ledger s s''.
Proof.
  intros [xs [X B Pp]] [Hb Hx]. exists xs. split; [rewrite Hx, X; reflexivity|rewrite Hb, B; reflexivity|exact Pp].
Qed.

Lemma ledger_by_unique s s' xs ys : ledger_by s s' xs -> ledger_by s s' ys -> xs = ys.
Proof.
  intros [X1 _ _] [X2 _ _]. rewrite X1 in X2.
  apply app_inv_head in X2. exact X2.
Qed.

(* the record literal, which the earlier files spell out (BankFacts.sent, HookBase.payouts, VestingFacts.xfer_of) *)
Definition mkx (f t : addr) (d : N) (a : Z) : xfer := {| x_from := f; x_to := t; x_denom := d; x_amt := a |}.
Definition send_xf (f t : addr) (d : N) (a : Z) : list xfer := if a =? 0 then [] else [mkx f t d a].
(* the transfers of send_coins / FundCommunityPool *)
Definition coin_xfers (f t : addr) (cs : coins) : list xfer :=
  flat_map (fun c => send_xf f t (fst c) (snd c)) cs.

(* ledger from s to the state of a successful result; a failure books nothing that counts *)
Definition ledR {A} (p : A -> state) (s : state) (r : res A) : Prop :=
  match r with Ok x => ledger s (p x) | Err _ _ => True end.
Lemma ledR_fail {A} (p : A -> state) s s0 c : ledR p s (@fail A s0 c).
Proof. exact I. Qed.

(* what a step appends to the log; LedgerCharges.step_xfers_spec: the step books exactly this list *)
Definition step_xfers (s : state) (o : op) : list xfer :=
  skipn (length (st_xfers s)) (st_xfers (snd (step s o))).

Lemma sum_xfers_nil p : sum_xfers [] p = 0. Proof. reflexivity. Qed.
Lemma sum_xfers_cons x xs p : sum_xfers (x :: xs) p = (if p x then x_amt x else 0) + sum_xfers xs p.
Proof. unfold sum_xfers. cbn [filter]. destruct (p x); cbn [map]; rewrite ?sumZ_cons; lia. Qed.
Lemma sum_xfers_app xs ys p : sum_xfers (xs ++ ys) p = sum_xfers xs p + sum_xfers ys p.
Proof. unfold sum_xfers. rewrite filter_app, map_app, sumZ_app. reflexivity. Qed.
Lemma sum_xfers_nonneg xs p : pos_xs xs -> 0 <= sum_xfers xs p.
Proof.
  induction 1 as [|x xs Hx _ IH]; [rewrite sum_xfers_nil; lia|]. rewrite sum_xfers_cons. destruct (p x); lia.
Qed.
Lemma sum_xfers_ext xs p q : (forall x, In x xs -> p x = q x) -> sum_xfers xs p = sum_xfers xs q.
Proof.
  induction xs as [|x xs IH]; intros H; [reflexivity|]. rewrite !sum_xfers_cons.
  rewrite (H x (or_introl eq_refl)), IH; [reflexivity|]. intros y Hy.
  apply H. now right.
Qed.
Lemma sum_xfers_none xs p : (forall x, In x xs -> p x = false) -> sum_xfers xs p = 0.
Proof.
  induction xs as [|x xs IH]; intros H; [reflexivity|]. rewrite sum_xfers_cons.
  rewrite (H x (or_introl eq_refl)), IH; [reflexivity|]. intros y Hy.
  apply H. now right.
Qed.

Lemma sum_xfers_send f t d a p : sum_xfers (send_xf f t d a) p = if p (mkx f t d a) then a else 0.
Proof.
  unfold send_xf. destruct (a =? 0) eqn:E0.
  - apply Z.eqb_eq in E0. subst a.
    rewrite sum_xfers_nil. destruct (p _); reflexivity.
  - rewrite sum_xfers_cons, sum_xfers_nil. cbn [mkx x_amt]. destruct (p _); lia.
Qed.

Lemma net_nil a d : net [] a d = 0. Proof. reflexivity. Qed.
Lemma net_cons x xs a d :
  net (x :: xs) a d = ind (addr_eqb (x_to x) a && N.eqb (x_denom x) d) (x_amt x)
                      - ind (addr_eqb (x_from x) a && N.eqb (x_denom x) d) (x_amt x) + net xs a d.
Proof.
  unfold net. rewrite !sum_xfers_cons.
  unfold ind. lia.
Qed.
Lemma net_app xs ys a d : net (xs ++ ys) a d = net xs a d + net ys a d.
Proof. unfold net. rewrite !sum_xfers_app. lia. Qed.

Theorem apply_xfers_net xs : forall b a d, apply_xfers b xs a d = b a d + net xs a d.
Proof.
  induction xs as [|x xs IH]; intros b a d.
  - change (apply_xfers b [] a d) with (b a d). rewrite net_nil. lia.
  - change (apply_xfers b (x :: xs)) with (apply_xfers (apply_xfer b x) xs).
    rewrite IH, net_cons. unfold apply_xfer. rewrite move_spec.
    rewrite (addr_eqb_sym a (x_from x)), (addr_eqb_sym a (x_to x)), (N.eqb_sym d (x_denom x)). lia.
Qed.

(* the same equation as users rewrite with it: of a ledger_by here, of banked s xs below (banked_bal) *)
Lemma ledger_bal s s' xs x d : ledger_by s s' xs -> st_bal s' x d = st_bal s x d + net xs x d.
Proof. intros L. rewrite (lb_bal _ _ _ L). apply apply_xfers_net. Qed.

Definition endpoints_in (A : list addr) (xs : list xfer) : Prop :=
  forall x, In x xs -> In (x_from x) A /\ In (x_to x) A.

(* over all accounts, what comes in and what goes out are each the whole of what moves in d *)
Lemma sum_xfers_ends (e : xfer -> addr) (A : list addr) xs d :
  NoDup A -> (forall x, In x xs -> In (e x) A) ->
  sumZ (map (fun a => sum_xfers xs (fun x => addr_eqb (e x) a && N.eqb (x_denom x) d)) A)
  = sum_xfers xs (fun x => N.eqb (x_denom x) d).
Proof.
  intros Hnd He. unfold sum_xfers.
  rewrite <- (sumZ_by_key addr_eqb e x_amt A (filter (fun x => N.eqb (x_denom x) d) xs) addr_eqb_eq Hnd).
  - apply sumZ_map_ext. intros a _. rewrite filter_filter. do 2 f_equal. apply filter_ext. intros x. apply andb_comm.
  - intros x Hx. apply filter_In in Hx. apply He, Hx.
Qed.

Theorem net_zero_sum (A : list addr) xs d :
  NoDup A -> endpoints_in A xs -> sumZ (map (fun a => net xs a d) A) = 0.
Proof.
  intros Hnd He. unfold net. rewrite sumZ_map_sub, (sum_xfers_ends x_to), (sum_xfers_ends x_from); try assumption; [lia| |];
    intros x Hx; apply (He x Hx).
Qed.

Theorem zero_sum_by s s' xs (A : list addr) d :
  ledger_by s s' xs -> NoDup A -> endpoints_in A xs ->
  sumZ (map (fun a => st_bal s' a d) A) = sumZ (map (fun a => st_bal s a d) A).
Proof.
  intros L Hnd He.
  rewrite (sumZ_map_ext (fun a => st_bal s' a d) (fun a => st_bal s a d + net xs a d)).
  - rewrite sumZ_map_add, (net_zero_sum A xs d Hnd He). lia.
  - intros a _. apply (ledger_bal _ _ _ _ _ L).
Qed.

(* zero_sum_by at run s ops *)
Theorem run_zero_sum s ops (A : list addr) d xs :
  ledger_by s (run s ops) xs -> NoDup A -> endpoints_in A xs ->
  sumZ (map (fun a => st_bal (run s ops) a d) A) = sumZ (map (fun a => st_bal s a d) A).
Proof. apply zero_sum_by. Qed.

Lemma net_send_xf f t d a x d' :
  net (send_xf f t d a) x d' = ind (addr_eqb t x && N.eqb d d') a - ind (addr_eqb f x && N.eqb d d') a.
Proof. unfold net. rewrite !sum_xfers_send. reflexivity. Qed.

Lemma net_payouts from d f x d' : (forall u, x <> User u) -> forall us,
  net (payouts from d us f) x d' = - ind (addr_eqb from x && N.eqb d d') (total_of us f).
Proof.
  intros Hx. unfold payouts, total_of. induction us as [|u r IH]; cbn [filter map].
  - rewrite net_nil. unfold ind. destruct (_ && _); reflexivity.
  - rewrite sumZ_cons. destruct (f u =? 0) eqn:E0; cbn [negb].
    + apply Z.eqb_eq in E0. rewrite IH, E0. reflexivity.
    + cbn [map]. rewrite net_cons, IH. cbn [x_from x_to x_denom x_amt].
      assert (E : addr_eqb (User u) x = false) by (apply addr_eqb_neq; intros C; apply (Hx u); congruence).
      rewrite E. unfold ind.
      cbn [andb]. destruct (addr_eqb from x && N.eqb d d'); lia.
Qed.

(* wr: the settlement refunds, which only that of a batch auction does (LedgerSettle.settle_xfers) *)
Lemma net_refunds (wr : bool) from d f us x d' : (forall u, x <> User u) ->
  net (if wr then payouts from d us f else []) x d' = - ind (wr && (addr_eqb from x && N.eqb d d')) (total_of us f).
Proof. intros Hx. destruct wr; [apply net_payouts, Hx|reflexivity]. Qed.

(* The bank effect of an operation is the list of transfers it books: banked s xs is s with xs replayed on the
   balance sheet and appended to the log, and pays b xs says that the payments xs go through, in this order, from the
   balance sheet b (each amount positive and covered).  Every bank primitive succeeds exactly when its list pays, and
   then yields the banked state; what a consumer wants of the bank (the log, a balance, that nothing else changed) it
   reads off banked. *)
Definition banked (s : state) (xs : list xfer) : state :=
  with_bank s (apply_xfers (st_bal s) xs) (st_xfers s ++ xs).

Fixpoint pays (b : addr -> N -> Z) (xs : list xfer) : Prop :=
  match xs with
  | [] => True
  | x :: r => 0 < x_amt x <= b (x_from x) (x_denom x) /\ pays (apply_xfer b x) r
  end.

Lemma banked_nil s : banked s [] = s.
Proof. unfold banked. rewrite app_nil_r. apply with_bank_eta. Qed.
Lemma banked_app s xs ys : banked (banked s xs) ys = banked s (xs ++ ys).
Proof. unfold banked. cbn [st_bal st_xfers with_bank]. rewrite apply_xfers_app, app_assoc. reflexivity. Qed.
Lemma banked_bal s xs x d : st_bal (banked s xs) x d = st_bal s x d + net xs x d.
Proof. apply apply_xfers_net. Qed.

Lemma pays_app xs : forall b ys, pays b (xs ++ ys) <-> pays b xs /\ pays (apply_xfers b xs) ys.
Proof.
  induction xs as [|x r IH]; intros b ys; cbn [app pays].
  - change (apply_xfers b []) with b. tauto.
  - change (apply_xfers b (x :: r)) with (apply_xfers (apply_xfer b x) r). rewrite IH. tauto.
Qed.
Lemma pays_pos b xs : pays b xs -> pos_xs xs.
Proof.
  revert b. induction xs as [|x r IH]; intros b H; [constructor|].
  destruct H as [H1 H2]. constructor; [lia|exact (IH _ H2)].
Qed.
(* payments that go through leave no balance negative *)
Lemma pays_nonneg xs : forall b, (forall x d, 0 <= b x d) -> pays b xs -> forall x d, 0 <= apply_xfers b xs x d.
Proof.
  induction xs as [|y r IH]; intros b Hb H; [exact Hb|].
  destruct H as [Hy H]. change (apply_xfers b (y :: r)) with (apply_xfers (apply_xfer b y) r).
  apply IH; [|exact H]. intros x d. unfold apply_xfer. rewrite move_spec. specialize (Hb x d). unfold ind.
  destruct (addr_eqb x (x_from y) && N.eqb d (x_denom y)) eqn:Ef; destruct (addr_eqb x (x_to y) && N.eqb d (x_denom y)); try lia.
  apply andb_true_iff in Ef. destruct Ef as [Ef Ed]. apply addr_eqb_eq in Ef. apply N.eqb_eq in Ed. subst x d. lia.
Qed.

(* s' is any state with the bank of banked s xs: the states handlers leave are such by computation *)
Lemma banked_ledger s xs s' : pays (st_bal s) xs -> same_bank (banked s xs) s' -> ledger_by s s' xs.
Proof. intros H [B X]. split; [exact X|exact B|exact (pays_pos _ _ H)]. Qed.

Lemma pays_send_xf b f t d a : pays b (send_xf f t d a) <-> a = 0 \/ 0 < a <= b f d.
Proof.
  unfold send_xf. destruct (Z.eqb_spec a 0) as [E|E]; cbn [pays mkx x_amt x_from x_denom]; intuition lia.
Qed.

Lemma sent_banked s f t d a : sent s f t d a = banked s (send_xf f t d a).
Proof. unfold sent, banked, send_xf. destruct (a =? 0); reflexivity. Qed.

Lemma yields_send s f t d a :
  yields (send s f t d a) (pays (st_bal s) (send_xf f t d a)) (banked s (send_xf f t d a)).
Proof. intros x. rewrite send_iff, sent_banked, pays_send_xf. intuition lia. Qed.

Lemma yields_send_coins f t cs : forall s,
  yields (send_coins s f t cs) (pays (st_bal s) (coin_xfers f t cs)) (banked s (coin_xfers f t cs)).
Proof.
  induction cs as [|[d a] rest IH]; intros s; cbn [send_coins].
  - change (coin_xfers f t []) with (@nil xfer). rewrite banked_nil. apply yields_ok.
  - change (coin_xfers f t ((d, a) :: rest)) with (send_xf f t d a ++ coin_xfers f t rest).
    rewrite <- banked_app. eapply yields_conv; [eapply yields_bind; [apply yields_send|apply IH]| |reflexivity].
    rewrite pays_app. reflexivity.
Qed.
Lemma yields_fund_pool s u cs :
  yields (fund_pool s u cs) (pays (st_bal s) (coin_xfers (User u) Pool cs)) (banked s (coin_xfers (User u) Pool cs)).
Proof. apply yields_send_coins. Qed.

(* payouts is HookBase's, where the hook proofs need it; its lemmas are here, with the lists it is built from *)
Lemma payouts_cons from d u us f : payouts from d (u :: us) f = send_xf from (User u) d (f u) ++ payouts from d us f.
Proof. unfold payouts, send_xf. cbn [filter]. destruct (f u =? 0); reflexivity. Qed.

Lemma yields_pay_out from d f : forall us s,
  yields (pay_out s from d us f) (pays (st_bal s) (payouts from d us f)) (banked s (payouts from d us f)).
Proof.
  induction us as [|u us IH]; intros s; cbn [pay_out].
  - change (payouts from d [] f) with (@nil xfer). rewrite banked_nil. apply yields_ok.
  - rewrite payouts_cons. destruct (f u =? 0) eqn:E0.
    + unfold send_xf. rewrite E0. apply IH.
    + rewrite <- banked_app. eapply yields_conv; [eapply yields_bind; [apply yields_send|apply IH]| |reflexivity].
      rewrite pays_app. reflexivity.
Qed.

(* payments out of one escrow account in one coin, to users: they go through exactly when each is positive and the
   account covers their sum *)
Definition esc_payment (r : role) (id d : N) (x : xfer) : Prop :=
  x_from x = Escrow r id /\ x_denom x = d /\ exists u, x_to x = User u.

Lemma pays_esc_payments r id d : forall xs b, Forall (esc_payment r id d) xs ->
  (pays b xs <-> Forall (fun x => 0 < x_amt x) xs
                 /\ (sumZ (map x_amt xs) = 0 \/ sumZ (map x_amt xs) <= b (Escrow r id) d)).
Proof.
  induction xs as [|x xs IH]; intros b Ho; cbn [pays map].
  - split; [intros _; split; [constructor|left; reflexivity]|tauto].
  - apply Forall_cons_iff in Ho. destruct Ho as [(Ef & Ed & u & Et) Ho]. rewrite (IH _ Ho), sumZ_cons, Forall_cons_iff, Ef, Ed.
    assert (E : apply_xfer b x (Escrow r id) d = b (Escrow r id) d - x_amt x).
    { unfold apply_xfer. rewrite move_spec, Ef, Ed, Et, addr_eqb_refl, N.eqb_refl. cbn [addr_eqb andb ind]. lia. }
    rewrite E. split.
    + intros (Hx & Hp & Hs). split; [split; [lia|exact Hp]|]. right. lia.
    + intros ((Hx & Hp) & Hs).
      assert (0 <= sumZ (map x_amt xs)).
      { apply sumZ_map_nonneg. rewrite Forall_forall in Hp. intros y Hy. specialize (Hp y Hy). lia. }
      split; [lia|]. split; [exact Hp|]. right. lia.
Qed.

(* the case of a payouts list, which leaves out the zero amounts: every amount is non-negative and the sum is covered *)
Lemma pays_payouts b r id d f us :
  pays b (payouts (Escrow r id) d us f) <->
  (forall u, In u us -> 0 <= f u) /\ (total_of us f = 0 \/ total_of us f <= b (Escrow r id) d).
Proof.
  unfold total_of, payouts.
  rewrite (pays_esc_payments r id d)
    by (rewrite Forall_map, Forall_forall; intros u _; split; [reflexivity|split; [reflexivity|eexists; reflexivity]]).
  rewrite Forall_map, map_map, Forall_forall. cbn [x_amt]. change (fun x : N => f x) with f. rewrite (sumZ_drop_zero f us).
  (* among the amounts that are not zero, positive is non-negative *)
  assert (Hnz : forall u, In u (filter (fun u => negb (f u =? 0)) us) <-> In u us /\ f u <> 0)
    by (intros u; rewrite filter_In, negb_true_iff, Z.eqb_neq; reflexivity).
  split; intros [Hp Hs]; (split; [|exact Hs]).
  - intros u Hu. destruct (Z.eq_dec (f u) 0) as [E|E]; [lia|]. apply Z.lt_le_incl, Hp, Hnz. auto.
  - intros u Hu. apply Hnz in Hu. destruct Hu as [Hu E]. specialize (Hp u Hu). lia.
Qed.

Lemma send_xf_length f t d a : (length (send_xf f t d a) <= 1)%nat.
Proof. unfold send_xf. destruct (a =? 0); cbn [length]; lia. Qed.

(* a property of single transfers holds of the lists built from send_xf and coin_xfers *)
Lemma Forall_send_xf (Q : xfer -> Prop) f t d a : Q (mkx f t d a) -> Forall Q (send_xf f t d a).
Proof. intros H. unfold send_xf. destruct (a =? 0); constructor; [exact H|constructor]. Qed.
Lemma Forall_coin_xfers (Q : xfer -> Prop) f t cs : (forall d a, Q (mkx f t d a)) -> Forall Q (coin_xfers f t cs).
Proof.
  intros H. unfold coin_xfers. induction cs as [|[d a] r IH]; cbn [flat_map]; [constructor|].
  apply Forall_app. split; [apply Forall_send_xf, H|exact IH].
Qed.

(* both ends of the transfer are users, the pool or escrow accounts of auction id *)
Definition own_ends (id : N) (x : xfer) : Prop := FrameFacts.addr_ok id (x_from x) /\ FrameFacts.addr_ok id (x_to x).

(* such transfers leave the escrow accounts of the other auctions alone *)
Lemma apply_xfers_esc_keep id xs : forall b,
  Forall (own_ends id) xs -> FrameFacts.esc_keep id b (apply_xfers b xs).
Proof.
  induction xs as [|x r IH]; intros b H; [apply FrameFacts.esc_keep_refl|].
  apply Forall_cons_iff in H. destruct H as [[Hf Ht] Hr]. change (apply_xfers b (x :: r)) with (apply_xfers (apply_xfer b x) r).
  apply (FrameFacts.esc_keep_trans id b (apply_xfer b x)); [|apply IH, Hr].
  unfold apply_xfer. apply FrameFacts.move_esc_keep; assumption.
Qed.

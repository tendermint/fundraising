(* C17, BeginBlocker.  A settlement offers the allocation hook once and logs its transfers (settle_gen_emits, settle_gen_log).
   quiet: a computation that calls no hook, failing or not; a block in which no Started auction is due is quiet
   (begin_block_quiet, a reading of the one walk of HookBase).  The hooks of an action (act_hooks, act_emits): the allocation
   hook for a settlement, none otherwise; so an auction's turn leaves the trace alone unless it settles
   (process_settle_cases), and the hooks of a block are those of the actions chosen from its first state, in store order
   (process_all_emits; block_emits, the same of begin_block, which Chk17Block reads); hence a successful block in which no
   Started auction ends up settled calls no hook, given unique auction ids (block_no_settle_no_hooks). *)
From Coq Require Import ZArith List Bool.
From FR Require Import Types Match Step Model Checkers.
From Coq Require Import Lia.
From FR Require Import Spec.
From FR.Proofs Require Import ListFacts ResFacts HookBase HookFacts HookSites FrameFacts BlockFacts BlockWalk Ledger LedgerSettle.
Import ListNotations.
Open Scope Z_scope.

(* a settlement offers the allocation hook, once *)
Lemma settle_gen_emits s a mi wr s' :
  settle_gen s a mi wr = Ok s' -> emits s [(H_BeforeAllocated, alloc_args a mi wr)] s'.
Proof.
  intros H. apply settle_gen_iff in H. destruct H as [_ ->]. unfold emits. rewrite <- all_calls_expected. reflexivity.
Qed.
Lemma settle_gen_log s a mi wr s' : settle_gen s a mi wr = Ok s' -> st_xfers s' = st_xfers s ++ settle_xfers s a mi wr.
Proof.
  intros H. apply settle_gen_iff in H. destruct H as [_ ->]. reflexivity.
Qed.

Definition quiet (s : state) (r : res state) : Prop :=
  match r with Ok s' => st_trace s' = st_trace s | Err _ tr => tr = st_trace s end.

(* quiet is a reading of the one walk of BeginBlocker (HookBase), which asks for the hooks only for a Started auction that
   is due: begin_block_quiet is about a block that has none *)
Lemma quiet_reading : reading (fun s s' => quiet s (Ok s')) (fun s c tr => quiet s (Err c tr)).
Proof.
  constructor; cbn [quiet].
  - intros s1 s2 s3 H12 H23. congruence.
  - intros s s1 c tr H1 H2. congruence.
  - intros s s' St. apply (sl_trace _ _ St).
  - reflexivity.
  - reflexivity.
Qed.

Lemma extend_round_quiet : forall s a, quiet s (extend_round s a).
Proof. reflexivity. Qed.

Lemma begin_block_quiet : forall s t orc,
  (forall a, In a (st_auctions s) -> a_status a = Started -> t < last_end a) -> quiet s (begin_block s t orc).
Proof.
  intros s t orc H. apply (begin_block_res _ _ quiet_reading). intros a Ha St L. specialize (H a Ha St). lia.
Qed.

(* only a settlement offers a hook, the allocation hook with the outcome of its matching *)
Definition act_hooks (a : auction) (x : act) : list (N * list Z) :=
  match x with ASettle mi wr => [(H_BeforeAllocated, alloc_args a mi wr)] | _ => [] end.

Lemma act_emits t s a x :
  emits s (act_hooks a x) (act_state t s a x) /\ st_listeners (act_state t s a x) = st_listeners s.
Proof.
  rewrite act_state_eq. split; [|reflexivity].
  destruct x as [| |mi|mi wr|]; cbn [act_hooks]; try (apply emits_none; reflexivity).
  unfold emits. cbn [st_trace act_trace]. rewrite all_calls_expected. reflexivity.
Qed.

(* an auction's turn leaves the trace alone unless it settles *)
Lemma process_settle_cases t orc s a s' : process t orc s a = Ok s' ->
  st_trace s' = st_trace s \/
  exists mi wr, chosen t orc s a (ASettle mi wr) /\ act_pre t s a (ASettle mi wr) /\ s' = act_state t s a (ASettle mi wr).
Proof.
  intros H. apply process_iff in H. destruct H as (x & C & P & ->). destruct (act_emits t s a x) as [E _].
  destruct x as [| |mi|mi wr|]; [left|left|left|right; exists mi, wr; auto|left].
  all: unfold emits in E; cbn [act_hooks expected_trace flat_map] in E; rewrite app_nil_r in E; exact E.
Qed.

(* the hooks of a block: those of the actions chosen, one auction after the other *)
Lemma process_all_emits t orc : forall l sc s',
  NoDup (map a_id l) -> process_all t orc sc l = Ok s' ->
  exists xs, Forall2 (chosen t orc sc) l xs
             /\ emits sc (flat_map (fun ax => act_hooks (fst ax) (snd ax)) (combine l xs)) s'.
Proof.
  induction l as [|a rest IH]; intros sc s' ND H; cbn [process_all] in H.
  - injection H as <-. exists []. split; [constructor|apply emits_none; reflexivity].
  - apply bind_ok_inv in H. destruct H as (s1 & H1 & H). inversion ND as [|? ? Hn ND']; subst.
    apply process_iff in H1. destruct H1 as (x & C & _ & ->).
    destruct (IH _ _ ND' H) as (xs & F & E). exists (x :: xs).
    pose proof (act_eff t sc a x) as PE. destruct (act_emits t sc a x) as [Ea El]. split.
    + constructor; [exact C|]. revert F. apply Forall2_impl_in. intros b y Hb.
      apply chosen_slice; [|exact (ge_params (pe_glob _ _ _ PE))].
      apply (pe_frame _ _ _ PE). intros Eq. apply Hn. rewrite <- Eq. apply in_map, Hb.
    + exact (emits_app sc _ s' _ _ Ea El E).
Qed.

(* the same of a successful block: the clock it sets does not matter to the choice *)
Lemma block_emits s t orc s' :
  NoDup (map a_id (st_auctions s)) -> begin_block s t orc = Ok s' ->
  exists xs, Forall2 (chosen t orc s) (st_auctions s) xs
             /\ emits s (flat_map (fun ax => act_hooks (fst ax) (snd ax)) (combine (st_auctions s) xs)) s'.
Proof.
  intros ND H. rewrite begin_block_eq in H. destruct (process_all_emits t orc _ _ _ ND H) as (xs & F & E).
  exists xs. split; [|exact E]. revert F. apply Forall2_impl_in. intros a x _.
  apply chosen_slice; [split|]; reflexivity.
Qed.

Theorem block_no_settle_no_hooks : forall s t orc,
  NoDup (map a_id (st_auctions s)) ->
  fst (step s (OBlock t orc)) = BlockOk ->
  (forall a x, In a (st_auctions s) -> a_status a = Started ->
               find_auction (snd (step s (OBlock t orc))) (a_id a) = Some x -> settled (a_status x) = false) ->
  st_trace (snd (step s (OBlock t orc))) = st_trace s.
Proof.
  intros s t orc Hnd Hok Hns. cbn [step] in *. destruct (begin_block s t orc) as [s'|c tr] eqn:H; [|discriminate Hok].
  cbn [snd] in *. destruct (block_emits s t orc s' Hnd H) as (xs & F & E).
  rewrite begin_block_eq in H. unfold emits in E. rewrite E, (flat_combine_nil _ _ _ _ F); [apply app_nil_r|].
  intros a x Ha C. destruct x as [| |mi|mi wr|]; try reflexivity. exfalso.
  (* a settlement: a is processed once, from a state with its slice of s, hence by this action, which leaves its record
     settled, and nothing later in the walk touches that *)
  destruct (process_all_alone t orc _ _ _ Hnd H a Ha) as (s1 & s2 & S1 & G & P & S2).
  apply process_iff in P. destruct P as (y & Cy & _ & ->).
  assert (Sl : slice_eq (a_id a) s s1) by (eapply slice_eq_trans; [|exact S1]; split; reflexivity).
  rewrite (chosen_fun _ _ _ _ _ _ (chosen_slice t orc s s1 a y Sl (ge_params G) Cy) C) in *.
  assert (Fa : find_auction s1 (a_id a) = Some a).
  { rewrite (se_auction _ _ _ Sl). exact (find_key a_id _ a Hnd Ha). }
  pose proof (Hns a (act_record t s1 a (ASettle mi wr)) Ha (chosen_status _ _ _ _ _ C)) as K.
  rewrite (se_auction _ _ _ S2), (act_find t s1 a _ Fa) in K. specialize (K eq_refl).
  cbn [act_record a_status set_status] in K. destruct (settled_st_cases a) as [Es|Es]; rewrite Es in K; discriminate K.
Qed.

(* Genesis.import for ANY genesis, no invariant, in closed form: each of its loops is a check (every record names an
   imported auction: `known`) and a list written to one store (import_bids_eq, import_vqs_eq; the allow-list loop cannot
   fail, fold_reput_shape); together, import answers `imported base g` exactly when the bids and the instalments are
   known (import_closed).  Everything else about the GENESIS operation starts from here. *)
From Coq Require Import ZArith NArith List Bool.
From FR Require Import Types Bank Step Genesis Model.
Import ListNotations.
Open Scope Z_scope.

Definition reput (s : state) (x : allowed) : state := put_allowed s (al_auction x) (al_bidder x) (al_max x).

Lemma reput_shape s x : reput s x = with_allowed s (st_allowed (reput s x)).
Proof. unfold reput, put_allowed. destruct (find_allowed s (al_auction x) (al_bidder x)); reflexivity. Qed.

Lemma fold_reput_shape l : forall s0, fold_left reput l s0 = with_allowed s0 (st_allowed (fold_left reput l s0)).
Proof.
  induction l as [|x r IH]; intros s0; cbn [fold_left]; [destruct s0; reflexivity|].
  rewrite IH at 1. rewrite reput_shape at 1. reflexivity.
Qed.

Definition known (s : state) (ids : list N) : bool :=
  forallb (fun a => match find_auction s a with Some _ => true | None => false end) ids.

Lemma known_In s ids : known s ids = true <-> forall a, In a ids -> find_auction s a <> None.
Proof.
  unfold known. rewrite forallb_forall. split; intros H a Ha; specialize (H a Ha);
    destruct (find_auction s a); congruence.
Qed.

(* the bids as the import stores them, numbered from the counters f, and the counters it leaves *)
Fixpoint number (f : N -> N) (l : list bid) : list bid * (N -> N) :=
  match l with
  | [] => ([], f)
  | b :: r => let id := (f (b_auction b) + 1)%N in
              let (l', f') := number (upd f (b_auction b) id) r in (set_b_id b id :: l', f')
  end.

Lemma in_number l : forall f b', In b' (fst (number f l)) -> exists b id, In b l /\ b' = set_b_id b id.
Proof.
  induction l as [|b r IH]; intros f b' H; cbn [number] in H; [destruct H|].
  specialize (IH (upd f (b_auction b) (f (b_auction b) + 1)%N) b').
  destruct (number _ r) as [l' f']. cbn [fst] in *. destruct H as [<-|H].
  - exists b, (f (b_auction b) + 1)%N. split; [left|]; reflexivity.
  - destruct (IH H) as (b0 & id & Hin & ->). exists b0, id. split; [right; exact Hin|reflexivity].
Qed.

Lemma import_bids_eq l : forall s,
  import_bids s l = if known s (map b_auction l)
                    then Some (with_bids (with_bseq s (snd (number (st_bseq s) l))) (st_bids s ++ fst (number (st_bseq s) l)))
                    else None.
Proof.
  induction l as [|b r IH]; intros s; cbn [import_bids map known forallb number].
  - cbn [fst snd]. rewrite app_nil_r. destruct s; reflexivity.
  - destruct (find_auction s (b_auction b)); [|reflexivity]. rewrite IH. cbn [st_bseq with_bids with_bseq st_bids].
    destruct (number _ r) as [l' f']. cbn [fst snd andb]. rewrite <- app_assoc. reflexivity.
Qed.

(* VestingQueue.Set under the key (auction, release time): a stored instalment with the key of v gives way to v *)
Definition put_vq (l : list vq) (v : vq) : list vq :=
  filter (fun x => negb (N.eqb (v_auction x) (v_auction v) && (v_time x =? v_time v))) l ++ [v].

Lemma in_fold_put_vq L : forall l x, In x (fold_left put_vq L l) -> In x l \/ In x L.
Proof.
  induction L as [|v r IH]; intros l x Hx; cbn [fold_left] in Hx; [left; exact Hx|].
  apply IH in Hx. destruct Hx as [Hx|Hx]; [|right; right; exact Hx].
  apply in_app_or in Hx. destruct Hx as [Hx|[<-|[]]]; [left; apply filter_In in Hx; apply Hx|right; left; reflexivity].
Qed.

Lemma import_vqs_eq l : forall s,
  import_vqs s l = if known s (map v_auction l) then Some (with_vqs s (fold_left put_vq l (st_vqs s))) else None.
Proof.
  induction l as [|v r IH]; intros s; cbn [import_vqs map known forallb fold_left].
  - destruct s; reflexivity.
  - destruct (find_auction s (v_auction v)); [|reflexivity]. rewrite IH. reflexivity.
Qed.

(* the module store the import starts from *)
Definition import_base (base : state) (g : genesis) : state :=
  {| st_params := st_params base; st_auctions := fst (import_auctions (g_auctions g) 0%N); st_bids := [];
     st_allowed := []; st_vqs := []; st_aseq := snd (import_auctions (g_auctions g) 0%N);
     st_bseq := fun _ => 0%N; st_mlen := fun _ => 0; st_bal := st_bal base; st_now := st_now base;
     st_listeners := st_listeners base; st_switch := st_switch base; st_xfers := st_xfers base;
     st_trace := st_trace base |}.

(* the matched length the import records for auction a: the count of the matched bids of a batch auction *)
Definition import_mlen (s1 : state) (g : genesis) (a : N) : Z :=
  match find_auction s1 a with
  | Some au => match a_type au with Batch => count_matched (g_bids g) a | FixedPrice => 0 end
  | None => 0
  end.

Definition imported (base : state) (g : genesis) : state :=
  {| st_params := g_params g; st_auctions := fst (import_auctions (g_auctions g) 0%N);
     st_bids := fst (number (fun _ => 0%N) (g_bids g));
     st_allowed := st_allowed (fold_left reput (g_allowed g) (import_base base g));
     st_vqs := fold_left put_vq (g_vqs g) []; st_aseq := snd (import_auctions (g_auctions g) 0%N);
     st_bseq := snd (number (fun _ => 0%N) (g_bids g)); st_mlen := import_mlen (import_base base g) g;
     st_bal := st_bal base; st_now := st_now base; st_listeners := st_listeners base;
     st_switch := st_switch base; st_xfers := st_xfers base; st_trace := st_trace base |}.

Theorem import_closed base g :
  import base g = if known (import_base base g) (map b_auction (g_bids g)) && known (import_base base g) (map v_auction (g_vqs g))
                  then Some (imported base g) else None.
Proof.
  unfold import, imported, import_base. destruct (import_auctions (g_auctions g) 0%N) as [aus seq]. cbv zeta. cbn [fst snd].
  match goal with |- context [fold_left ?f ?l ?b] => change (fold_left f l b) with (fold_left reput l b) end.
  rewrite fold_reput_shape, import_bids_eq. destruct (known _ (map b_auction _)); [|reflexivity].
  rewrite import_vqs_eq. destruct (known _ (map v_auction _)); reflexivity.
Qed.

Theorem import_inv base g s' : import base g = Some s' -> s' = imported base g.
Proof. rewrite import_closed. destruct (_ && _); [intros H; injection H as <-; reflexivity|discriminate]. Qed.

(* the GENESIS operation, accepted or not *)
Corollary genesis_keeps s :
  let s' := snd (step s OGenesis) in
  st_bal s' = st_bal s /\ st_xfers s' = st_xfers s /\ st_trace s' = st_trace s /\ st_now s' = st_now s
  /\ st_listeners s' = st_listeners s /\ st_switch s' = st_switch s.
Proof.
  cbn [step]. unfold genesis_roundtrip.
  destruct (import s (export s)) as [s1|] eqn:E; cbn [snd]; [|repeat split].
  rewrite (import_inv _ _ _ E). repeat split.
Qed.

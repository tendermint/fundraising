(* C02: the ledger invariant LI over the ghost log of transfers.  Starting from a state with an empty log
   (init_state), in every reachable state and for every auction id:
     - what the log moved from the paying escrow into the vesting escrow (the transfers pv id; li_in, li_in_denom)
       is the sum of the auction's vesting instalments;
     - what the log moved out of the vesting escrow (the transfers vout id; li_out, li_out_dest) is the sum of the
       released instalments, and all of it went to the auctioneer, in the paying denomination.
   Hence for a Finished auction the auctioneer has received exactly what the settlement moved into the
   vesting escrow. *)
From Coq Require Import ZArith NArith List Bool Lia.
From FR Require Import Types Match Step Genesis Model Checkers.
From FR.Proofs Require Import InvDefs VestingFacts HookBase ListFacts EqbFacts Ledger LedgerCharges LedgerSettle LedgerTerminal.
From FR.Proofs Require FrameFacts TxFacts BlockFacts BlockWalk LifeTheorems DecFacts EscrowBlock InvAll VestingInv
     GenesisImport.
Import ListNotations.
Open Scope Z_scope.

(* pv id: a transfer from the paying into the vesting escrow of auction id; vout id: one out of its vesting escrow
   (as a Prop about any role: LedgerSettle.src_of); LI: the ledger invariant of vesting only; plain: neither *)
Definition pv (id : N) (x : xfer) : bool :=
  addr_eqb (x_from x) (Escrow Paying id) && addr_eqb (x_to x) (Escrow Vesting id).
Definition vout (id : N) (x : xfer) : bool := addr_eqb (x_from x) (Escrow Vesting id).
Definition amt_all (vs : list vq) : Z := sumZ (map v_amt vs).
Definition amt_rel (vs : list vq) : Z := sumZ (map v_amt (filter v_released vs)).

Record LI (s : state) : Prop := {
  li_in : forall id, sum_xfers (st_xfers s) (pv id) = amt_all (vqs_of s id);
  li_out : forall id, sum_xfers (st_xfers s) (vout id) = amt_rel (vqs_of s id);
  li_in_denom : forall x id, In x (st_xfers s) -> pv id x = true ->
      exists a, find_auction s id = Some a /\ x_denom x = a_pay_denom a;
  li_out_dest : forall x id, In x (st_xfers s) -> vout id x = true ->
      exists a, find_auction s id = Some a /\ x_to x = User (a_auctioneer a) /\ x_denom x = a_pay_denom a }.

Definition auct_pres (s s' : state) : Prop :=
  forall id a, find_auction s id = Some a ->
    exists a', find_auction s' id = Some a' /\ a_auctioneer a' = a_auctioneer a /\ a_pay_denom a' = a_pay_denom a.

Lemma auct_pres_same s s' : st_auctions s' = st_auctions s -> auct_pres s s'.
Proof.
  intros E id a F. exists a. unfold find_auction in *.
  rewrite E. auto.
Qed.

Definition plain (x : xfer) : Prop := forall id, pv id x = false /\ vout id x = false.

Lemma plain_user u t d a : plain (mkx (User u) t d a).
Proof. intros id. split; reflexivity. Qed.
Lemma plain_selling id0 t d a : plain (mkx (Escrow Selling id0) t d a).
Proof. intros id. split; reflexivity. Qed.
Lemma plain_to_user r id0 u d a : r <> Vesting -> plain (mkx (Escrow r id0) (User u) d a).
Proof.
  intros Hr id. unfold pv, vout. cbn [mkx x_from x_to addr_eqb].
  rewrite andb_false_r. split; [reflexivity|].
  destruct r; [reflexivity|reflexivity|congruence].
Qed.

Lemma LI_append s s' xs :
  st_xfers s' = st_xfers s ++ xs -> auct_pres s s' ->
  (forall id, sum_xfers xs (pv id) = amt_all (vqs_of s' id) - amt_all (vqs_of s id)) ->
  (forall id, sum_xfers xs (vout id) = amt_rel (vqs_of s' id) - amt_rel (vqs_of s id)) ->
  (forall x id, In x xs -> pv id x = true -> exists a, find_auction s' id = Some a /\ x_denom x = a_pay_denom a) ->
  (forall x id, In x xs -> vout id x = true ->
     exists a, find_auction s' id = Some a /\ x_to x = User (a_auctioneer a) /\ x_denom x = a_pay_denom a) ->
  LI s -> LI s'.
Proof.
  intros X A S1 S2 D1 D2 [I1 I2 I3 I4]. split.
  - intros id. rewrite X, sum_xfers_app, I1, S1. lia.
  - intros id. rewrite X, sum_xfers_app, I2, S2. lia.
  - intros x id Hx Hpv. rewrite X in Hx.
    apply in_app_or in Hx. destruct Hx as [Hx|Hx]; [|exact (D1 x id Hx Hpv)].
    destruct (I3 x id Hx Hpv) as (a & F & E). destruct (A id a F) as (a' & F' & _ & E').
    exists a'. split; [exact F'|congruence].
  - intros x id Hx Hv. rewrite X in Hx.
    apply in_app_or in Hx. destruct Hx as [Hx|Hx]; [|exact (D2 x id Hx Hv)].
    destruct (I4 x id Hx Hv) as (a & F & E1 & E2). destruct (A id a F) as (a' & F' & E1' & E2').
    exists a'. split; [exact F'|]. split; congruence.
Qed.

Lemma plain_sums xs id : Forall plain xs -> sum_xfers xs (pv id) = 0 /\ sum_xfers xs (vout id) = 0.
Proof.
  intros Hp. rewrite Forall_forall in Hp. split; apply sum_xfers_none; intros x Hx; apply (Hp x Hx id).
Qed.

Lemma LI_plain s s' xs :
  st_xfers s' = st_xfers s ++ xs -> Forall plain xs -> (forall id, vqs_of s' id = vqs_of s id) -> auct_pres s s' ->
  LI s -> LI s'.
Proof.
  intros X Hp V A. apply (LI_append s s' xs X A).
  - intros id. rewrite V, (proj1 (plain_sums xs id Hp)). lia.
  - intros id. rewrite V, (proj2 (plain_sums xs id Hp)). lia.
  - intros x id Hx Hpv. rewrite Forall_forall in Hp.
    destruct (Hp x Hx id) as [C _]. congruence.
  - intros x id Hx Hv. rewrite Forall_forall in Hp.
    destruct (Hp x Hx id) as [_ C]. congruence.
Qed.

Lemma LI_same s s' : st_xfers s' = st_xfers s -> (forall id, vqs_of s' id = vqs_of s id) -> auct_pres s s' -> LI s -> LI s'.
Proof. intros X. apply (LI_plain s s' []); [rewrite app_nil_r; exact X|constructor]. Qed.

Lemma Forall_payouts (Q : xfer -> Prop) from d us f :
  (forall u, Q (mkx from (User u) d (f u))) -> Forall Q (payouts from d us f).
Proof.
  intros H. unfold payouts. apply Forall_forall.
  intros x Hx. apply in_map_iff in Hx.
  destruct Hx as (u & <- & _). apply H.
Qed.

Lemma split_unreleased a R vs : filter v_released (split a R R vs) = [].
Proof.
  apply filter_nil_iff. intros v Hv. pose proof (DecFacts.split_fields a R vs R) as Hf.
  rewrite Forall_forall in Hf. apply (Hf v Hv).
Qed.

Lemma amt_all_app l1 l2 : amt_all (l1 ++ l2) = amt_all l1 + amt_all l2.
Proof. unfold amt_all. rewrite map_app, sumZ_app. reflexivity. Qed.
Lemma amt_rel_app l1 l2 : amt_rel (l1 ++ l2) = amt_rel l1 + amt_rel l2.
Proof. unfold amt_rel. rewrite filter_app, map_app, sumZ_app. reflexivity. Qed.

(* no action changes the auctioneer or the pay denomination of the record it stores, and the other records are framed *)
Lemma act_auct_pres t s a x : find_auction s (a_id a) = Some a -> auct_pres s (BlockWalk.act_state t s a x).
Proof.
  intros Fa id a0 F. destruct (N.eq_dec id (a_id a)) as [->|Hne].
  - rewrite Fa in F. injection F as <-. exists (BlockWalk.act_record t s a x). split; [apply BlockWalk.act_find, Fa|].
    destruct x as [| |mi|mi wr|]; cbn [BlockWalk.act_record]; try (split; reflexivity);
      [destruct wr|destruct (FrameFacts.last_due _ _)]; split; reflexivity.
  - exists a0. rewrite (FrameFacts.se_auction _ _ _ (BlockWalk.pe_frame _ _ _ (BlockWalk.act_eff t s a x) id Hne)). auto.
Qed.

(* one auction processed: the transfers of the action leave the escrows of a (act_xfers_ends) and the queues of the other
   auctions are framed, so LI has to be shown for the queue of a and the filters of a alone *)
Lemma LI_act t s a x (s' := BlockWalk.act_state t s a x) (xs := BlockWalk.act_xfers t s a x) :
  find_auction s (a_id a) = Some a -> BlockWalk.act_pre t s a x ->
  sum_xfers xs (pv (a_id a)) = amt_all (vqs_of s' (a_id a)) - amt_all (vqs_of s (a_id a)) ->
  sum_xfers xs (vout (a_id a)) = amt_rel (vqs_of s' (a_id a)) - amt_rel (vqs_of s (a_id a)) ->
  (forall y, In y xs -> pv (a_id a) y = true -> x_denom y = a_pay_denom a) ->
  (forall y, In y xs -> vout (a_id a) y = true -> x_to y = User (a_auctioneer a) /\ x_denom y = a_pay_denom a) ->
  LI s -> LI s'.
Proof.
  intros Fa P S1 S2 D1 D2.
  pose proof (act_auct_pres t s a x Fa) as A. destruct (A _ a Fa) as (a1 & F1 & Eau & Epd). fold s' in A, F1.
  assert (Own : forall y id, In y xs -> pv id y = true \/ vout id y = true -> id = a_id a).
  { intros y id Hy Hp. pose proof (BlockWalk.act_xfers_ends t s a x) as E. rewrite Forall_forall in E.
    destruct (E y Hy) as [[r Er] _]. unfold pv, vout in Hp. rewrite Er in Hp. cbn [addr_eqb] in Hp.
    destruct Hp as [Hp|Hp]; FrameFacts.neqb; congruence. }
  assert (Other : forall id, id <> a_id a -> vqs_of s' id = vqs_of s id
            /\ sum_xfers xs (pv id) = 0 /\ sum_xfers xs (vout id) = 0).
  { intros id Hne. split; [exact (FrameFacts.se_vqs _ _ _ (BlockWalk.pe_frame _ _ _ (BlockWalk.act_eff t s a x) id Hne))|].
    split; apply sum_xfers_none; intros y Hy; apply not_true_is_false; intros C; apply Hne, (Own y id Hy); auto. }
  apply (LI_append s s' xs (lb_xfers _ _ _ (BlockWalk.act_ledger t s a x P)) A).
  - intros id. destruct (N.eq_dec id (a_id a)) as [->|Hne]; [exact S1|]. destruct (Other id Hne) as (-> & -> & _). lia.
  - intros id. destruct (N.eq_dec id (a_id a)) as [->|Hne]; [exact S2|]. destruct (Other id Hne) as (-> & _ & ->). lia.
  - intros y id Hy Hp. assert (id = a_id a) as -> by exact (Own y id Hy (or_introl Hp)).
    exists a1. split; [exact F1|]. rewrite Epd. exact (D1 y Hy Hp).
  - intros y id Hy Hp. assert (id = a_id a) as -> by exact (Own y id Hy (or_intror Hp)).
    exists a1. split; [exact F1|]. rewrite Eau, Epd. exact (D2 y Hy Hp).
Qed.

Lemma settle_xfers_plain s a mi wr :
  exists ys, settle_xfers s a mi wr
             = ys ++ send_xf (Escrow Paying (a_id a)) (vest_dest a) (a_pay_denom a) (proceeds_of s a mi wr)
             /\ Forall plain ys.
Proof.
  eexists. split; [unfold settle_xfers; rewrite !app_assoc; reflexivity|].
  apply Forall_app. split; [apply Forall_app; split|].
  - apply Forall_payouts. intros u. apply plain_selling.
  - apply Forall_send_xf, plain_selling.
  - destruct wr; [|constructor]. apply Forall_payouts. intros u.
    apply plain_to_user. discriminate.
Qed.

(* a settlement, fixed price or batch (the flags and the matched price do not show in the log, the queues or the pay
   denomination): of its transfers only the last, the proceeds, can go into the vesting escrow, and it does when there is
   a schedule; the instalments of the proceeds are appended to the queue, none released *)
Lemma LI_settle t s a mi wr :
  find_auction s (a_id a) = Some a -> BlockWalk.act_pre t s a (BlockWalk.ASettle mi wr) ->
  LI s -> LI (BlockWalk.act_state t s a (BlockWalk.ASettle mi wr)).
Proof.
  intros Fa P. destruct (settle_xfers_plain s a mi wr) as (ys & Exs & Hys).
  set (R := proceeds_of s a mi wr) in *.
  set (last := mkx (Escrow Paying (a_id a)) (vest_dest a) (a_pay_denom a) R).
  assert (Hpv : pv (a_id a) last = match a_scheds a with [] => false | _ => true end).
  { unfold pv, last, vest_dest. cbn [mkx x_from x_to]. rewrite addr_eqb_refl.
    destruct (a_scheds a); [reflexivity|apply addr_eqb_refl]. }
  assert (Last : forall y, In y (settle_xfers s a mi wr) -> pv (a_id a) y = true \/ vout (a_id a) y = true -> y = last).
  { intros y Hy Hp. rewrite Exs in Hy. apply in_app_or in Hy. destruct Hy as [Hy|Hy].
    - rewrite Forall_forall in Hys. destruct (Hys y Hy (a_id a)) as [C1 C2]. destruct Hp; congruence.
    - unfold send_xf in Hy. destruct (R =? 0); [destruct Hy|]. destruct Hy as [<-|[]]. reflexivity. }
  apply (LI_act t s a _ Fa P); cbn [BlockWalk.act_state BlockWalk.act_xfers]; rewrite ?BlockWalk.settled_own_vqs; fold R.
  - rewrite Exs, amt_all_app, sum_xfers_app, (proj1 (plain_sums ys _ Hys)), sum_xfers_send. fold last. rewrite Hpv.
    unfold new_vqs, amt_all. destruct (a_scheds a) as [|v vs] eqn:Es; [cbn; lia|].
    rewrite <- Es, DecFacts.split_sum by (rewrite Es; discriminate). lia.
  - rewrite Exs, amt_rel_app, sum_xfers_app, (proj2 (plain_sums ys _ Hys)), sum_xfers_send.
    unfold new_vqs, amt_rel. destruct (a_scheds a); [|rewrite split_unreleased]; cbn; lia.
  - intros y Hy Hp. rewrite (Last y Hy (or_introl Hp)). reflexivity.
  - intros y Hy Hv. rewrite (Last y Hy (or_intror Hv)) in Hv. discriminate Hv.
Qed.

Lemma amt_release id t : forall vs, (forall v, In v vs -> v_auction v = id) ->
  amt_all (map (release_vq id t) vs) = amt_all vs
  /\ amt_rel (map (release_vq id t) vs) = amt_rel vs + amt_all (due_of t vs).
Proof. intros vs Hid. destruct (release_sums id t vs Hid) as (H1 & H2 & _). split; assumption. Qed.

Lemma sum_rel_xfers_vout a t vs : sum_xfers (rel_xfers a t vs) (vout (a_id a)) = amt_all (due_of t vs).
Proof.
  unfold sum_xfers, vout. rewrite rel_xfers_vout. unfold rel_xfers, paid_of, amt_all. rewrite map_map.
  apply (sumZ_drop_zero v_amt).
Qed.

(* a release: what leaves the vesting escrow is what becomes released *)
Lemma LI_release t s a :
  vqs_wf s -> find_auction s (a_id a) = Some a -> BlockWalk.act_pre t s a BlockWalk.ARelease ->
  LI s -> LI (BlockWalk.act_state t s a BlockWalk.ARelease).
Proof.
  intros W Fa P.
  destruct (amt_release (a_id a) t (vqs_of s (a_id a)) (fun v Hv => BlockFacts.vqs_of_auction _ _ _ Hv)) as [Aall Arel].
  apply (LI_act t s a _ Fa P); cbn [BlockWalk.act_state BlockWalk.act_xfers];
    rewrite ?(released_vqs_of s a t _ (VestingInv.vqs_wf_nodup s W)), ?N.eqb_refl, ?Aall, ?Arel.
  - rewrite sum_xfers_none; [lia|]. intros y Hy. apply in_map_iff in Hy. destruct Hy as (v & <- & _). reflexivity.
  - rewrite sum_rel_xfers_vout. lia.
  - intros y Hy. apply in_map_iff in Hy. destruct Hy as (v & <- & _). discriminate.
  - intros y Hy _. apply in_map_iff in Hy. destruct Hy as (v & <- & Hv). split; [reflexivity|].
    apply filter_In in Hv. destruct Hv as [Hv _]. apply filter_In in Hv.
    exact (VestingInv.vo_denom (VestingInv.vqs_wf_own s _ a v W Fa (proj1 Hv))).
Qed.

Theorem process_LI t orc s a s' :
  Inv s -> In a (st_auctions s) -> process t orc s a = Ok s' -> LI s -> LI s'.
Proof.
  intros I Ha H L. pose proof (InvAll.Inv_find_in s a I Ha) as Fa.
  apply BlockWalk.process_iff in H. destruct H as (x & _ & P & ->). pose proof (act_auct_pres t s a x Fa) as A.
  destruct x as [| |mi|mi wr|]; cbn [BlockWalk.act_state] in *.
  - exact L.
  - apply (LI_same s); [reflexivity|intros id; reflexivity|exact A|exact L].
  - apply (LI_same s); [reflexivity|intros id; reflexivity|exact A|exact L].
  - exact (LI_settle t s a mi wr Fa P L).
  - exact (LI_release t s a (inv_vqs _ I) Fa P L).
Qed.

Lemma tx_xfers_plain s o : Forall plain (tx_xfers s o).
Proof. apply tx_xfers_ends; [intros v t d a _; apply plain_user|intros id u d a; apply plain_selling]. Qed.

Lemma terms_auct_pres s o : FrameFacts.ids_ok s -> o <> OGenesis -> auct_pres s (snd (step s o)).
Proof.
  intros OK Hg id a F. destruct (LifeTheorems.step_terms s o id a OK Hg F) as (a' & F' & T & _).
  exists a'. split; [exact F'|]. split; [exact (LifeTheorems.terms0_auctioneer _ _ T)|exact (LifeTheorems.terms0_pay_denom _ _ T)].
Qed.

Lemma step_LI_tx s o :
  Inv s -> LI s -> FrameFacts.is_block o = false -> o <> OGenesis -> LI (snd (step s o)).
Proof.
  intros I L B Hg.
  pose proof (TxFacts.step_shape s o B Hg) as Sh.
  pose proof (TxFacts.tx_vqs _ _ _ _ Sh) as V.
  pose proof (terms_auct_pres s o (InvAll.Inv_ids_ok s I) Hg) as A.
  destruct (accepted (fst (step s o))) eqn:Ha.
  - apply accepted_iff in Ha. apply (LI_plain s _ (tx_xfers s o)).
    + rewrite <- (step_xfers_accepted s o I Ha). apply (lb_xfers _ _ _ (step_xfers_spec s o)).
    + apply tx_xfers_plain.
    + apply VestingInv.vqs_of_ext, V.
    + exact A.
    + exact L.
  - apply (LI_same s).
    + apply step_nonblock_not_accepted; [exact B|]. intros E.
      rewrite E in Ha. discriminate Ha.
    + apply VestingInv.vqs_of_ext, V.
    + exact A.
    + exact L.
Qed.

Lemma LI_kept : InvAll.carried LI.
Proof.
  split.
  - (* the clock of a block, the trace of a failed one *)
    intros s t tr _. apply (LI_same s); [reflexivity|intros id; reflexivity|apply auct_pres_same; reflexivity].
  - (* an operation that is neither a block nor GENESIS *)
    intros s o I B Hg L. apply step_LI_tx; assumption.
  - (* one auction processed *)
    intros t orc s a s' I Ha H L. eapply process_LI; eassumption.
  - (* the GENESIS round trip *)
    intros s s' _ SS. apply (LI_same s); [apply (GenesisImport.ss_xfers _ _ SS)|apply (GenesisImport.ss_vqs_of _ _ SS)|].
    apply auct_pres_same, (GenesisImport.ss_auctions _ _ SS).
Qed.

Theorem run_LI : forall ops s, Inv s -> LI s -> LI (run s ops).
Proof. apply InvAll.carried_run, LI_kept. Qed.

Lemma LI_init bal now sw p : LI (init_state bal now sw p).
Proof.
  split.
  - intros id. reflexivity.
  - intros id. reflexivity.
  - intros x id [].
  - intros x id [].
Qed.

Theorem LI_reachable bal now sw p ops :
  (forall x d, 0 <= bal x d) -> coins_ok (p_cfee p) None = true -> coins_ok (p_bfee p) None = true ->
  LI (run (init_state bal now sw p) ops).
Proof. intros Hb H1 H2. apply run_LI; [apply InvAll.Inv_init; assumption|apply LI_init]. Qed.

Theorem vesting_ledger s a :
  Inv s -> LI s -> In a (st_auctions s) ->
  let id := a_id a in
  sum_xfers (st_xfers s) (from_to (Escrow Paying id) (Escrow Vesting id) (a_pay_denom a))
  = sumZ (map v_amt (vqs_of s id))
  /\ sum_xfers (st_xfers s) (from_to (Escrow Vesting id) (User (a_auctioneer a)) (a_pay_denom a))
     = sumZ (map v_amt (filter v_released (vqs_of s id)))
  /\ (a_status a = Finished ->
      sum_xfers (st_xfers s) (from_to (Escrow Vesting id) (User (a_auctioneer a)) (a_pay_denom a))
      = sum_xfers (st_xfers s) (from_to (Escrow Paying id) (Escrow Vesting id) (a_pay_denom a))).
Proof.
  intros I [I1 I2 I3 I4] Ha id. pose proof (InvAll.Inv_find_in s a I Ha) as Fa. fold id in Fa.
  assert (E1 : sum_xfers (st_xfers s) (from_to (Escrow Paying id) (Escrow Vesting id) (a_pay_denom a))
               = sum_xfers (st_xfers s) (pv id)).
  { apply sum_xfers_ext. intros x Hx. unfold from_to.
    fold (pv id x). destruct (pv id x) eqn:Ep; [|reflexivity].
    destruct (I3 x id Hx Ep) as (a0 & F & Ed). rewrite Fa in F. injection F as <-. rewrite Ed, N.eqb_refl. reflexivity. }
  assert (E2 : sum_xfers (st_xfers s) (from_to (Escrow Vesting id) (User (a_auctioneer a)) (a_pay_denom a))
               = sum_xfers (st_xfers s) (vout id)).
  { apply sum_xfers_ext. intros x Hx. unfold from_to.
    fold (vout id x). destruct (vout id x) eqn:Ev; [|reflexivity].
    destruct (I4 x id Hx Ev) as (a0 & F & Et & Ed). rewrite Fa in F. injection F as <-.
    rewrite Et, Ed, addr_eqb_refl, N.eqb_refl. reflexivity. }
  split; [rewrite E1; apply I1|]. split; [rewrite E2; apply I2|].
  intros Hfin. rewrite E1, E2, I1, I2. unfold amt_all, amt_rel.
  destruct (terminal_auctions s a I Ha (or_introl Hfin)) as (_ & Hrel & _).
  rewrite (filter_all_true v_released (vqs_of s id) Hrel). reflexivity.
Qed.

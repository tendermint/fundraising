(* A short concrete history for the Examples of the checker links C03 and C04: a batch auction (one round, one vesting
   instalment) offering 100 coins, two allow-listed bidders (user 2 capped at 60, user 3 at 100), three bids
   (30 coins @ 3.0 and 40 coins @ 1.0 by user 2, worth 101 @ 2.0 by user 3), a fixed price auction with one bid
   settled in the same block, and the closing block.  The batch auction clears at 2.0: user 2 gets 30 for 60
   (130 reserved, 70 refunded), user 3 gets 50 for 100 (1 refunded). *)
From Coq Require Import ZArith NArith List.
From FR Require Import Dec Types Model.
From FR.Proofs Require Import InvDefs InvAll ExcessExamples ExampleRuns.
From FR.Proofs Require TxFacts.
Import ListNotations.
Open Scope Z_scope.

Definition chk_create_batch : op :=
  OTx (MCreateBatch (AGood false 0) (Some P) (Some P) (c01_coin 1 100) (Some 2%N)
         [{| ms_time := 400; ms_weight := Some P |}] 0 (Some (P / 10)) 50 200).
Definition chk_allow (a u : N) (m : Z) : op := OTx (MAddAllowed a 0 (AGood false u) (Some m)).
Definition chk_bid (a u bt : N) (price : Z) (d : N) (amt : Z) : op :=
  OTx (MPlaceBid (AGood false u) a bt (Some price) (c01_coin d amt)).

(* auction 0: the fixed price auction of ExcessExamples (one bid of 50 by user 2); auction 1: the batch auction *)
Definition chk_hist : list op :=
  [c01_create; c01_allow; c01_bid; chk_create_batch; chk_allow 1 2 60; chk_allow 1 3 100;
   chk_bid 1 2 3 (3 * P) 1 30; chk_bid 1 3 2 (2 * P) 2 101; chk_bid 1 2 3 P 1 40].
Definition chk_state : state := run c01_init chk_hist.
(* the state evaluated once, from the state ExampleRuns has for the first three operations *)
Definition chk_tail : list op :=
  [chk_create_batch; chk_allow 1 2 60; chk_allow 1 3 100;
   chk_bid 1 2 3 (3 * P) 1 30; chk_bid 1 3 2 (2 * P) 2 101; chk_bid 1 2 3 P 1 40].
Definition chk_state_nf : state := Eval vm_compute in run c01_hist1_nf chk_tail.
Lemma chk_state_eq : chk_state = chk_state_nf.
Proof.
  unfold chk_state. change chk_hist with (c01_hist1 ++ chk_tail).
  rewrite TxFacts.run_app, c01_hist1_eq. vm_compute. reflexivity.
Qed.

Definition chk_close : op := OBlock 250 [(1%N, [1; 2; 3]%N)].

Lemma chk_state_Inv : Inv chk_state.
Proof. apply Inv_reachable; try reflexivity. intros [u|r a|] d; cbn; discriminate. Qed.

Lemma chk_oracle_ok : oracle_ok chk_state chk_close.
Proof.
  intros a Ha Ty _ _.
  (* evaluated in a goal, so that the proof term records the evaluation: in a hypothesis it would be redone at Qed,
     and there without the bytecode machine *)
  assert (E : map (fun a => (a_id a, a_type a)) (st_auctions chk_state) = [(0%N, FixedPrice); (1%N, Batch)])
    by (rewrite chk_state_eq; vm_compute; reflexivity).
  apply (in_map (fun a => (a_id a, a_type a))) in Ha. rewrite E in Ha.
  destruct Ha as [Ha|[Ha|[]]]; injection Ha as Hid Hty; [congruence|].
  rewrite <- Hid. eexists. eexists. split; [reflexivity|]. rewrite chk_state_eq. vm_compute. reflexivity.
Qed.

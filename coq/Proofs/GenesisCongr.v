(* C15, "evolves identically": `state_same` is a congruence for the transition function: related states give the
   same outcome and related successor states.  Here the primitives, the transactions and the API calls; blocks and
   whole histories are in GenesisCongrBlock.v. *)
From Coq Require Import ZArith NArith List Bool Arith Permutation.
From FR Require Import Dec Types Bank Match Step Model.
From FR.Proofs Require Import ListFacts GenesisImport GenesisInv.
Import ListNotations.
Open Scope Z_scope.

Definition res_rel {A} (R : A -> A -> Prop) (r r' : res A) : Prop :=
  match r, r' with
  | Ok a, Ok b => R a b
  | Err c t, Err c' t' => c = c' /\ t = t'
  | _, _ => False
  end.
Definition res_same : res state -> res state -> Prop := res_rel state_same.

Lemma bind_rel {A B} (R : A -> A -> Prop) (Q : B -> B -> Prop) (r r' : res A) (f f' : A -> res B) :
  res_rel R r r' -> (forall a b, R a b -> res_rel Q (f a) (f' b)) -> res_rel Q (bind r f) (bind r' f').
Proof.
  intros Hr Hf. destruct r as [a|c t], r' as [b|c' t']; cbn [res_rel bind] in *; try contradiction.
  - apply Hf. exact Hr.
  - exact Hr.
Qed.

Lemma res_rel_eq {A} (r : res A) : res_rel eq r r.
Proof. destruct r; cbn; auto. Qed.

(* a failure carries the hook trace, which related states share *)
Lemma fail_same {A} s s' c : state_same s s' -> @fail A s' c = fail s c.
Proof. intros H. unfold fail. rewrite (ss_trace _ _ H). reflexivity. Qed.

Lemma fail_rel {A} (R : A -> A -> Prop) s s' c : state_same s s' -> res_rel R (fail s c) (fail s' c).
Proof. intros H. rewrite (fail_same s s' c H). split; reflexivity. Qed.

Lemma caps_put_allowed s a u m id u' :
  caps_of (allowed_of (put_allowed s a u m) id) u'
  = if N.eqb id a && N.eqb u' u then Some m else caps_of (allowed_of s id) u'.
Proof.
  unfold put_allowed, caps_of, allowed_of.
  set (e := {| al_auction := a; al_bidder := u; al_max := m |}).
  destruct (find_allowed s a u) as [x0|] eqn:Ef; cbn [st_allowed with_allowed].
  - (* (a, u) has an entry: map g puts e in its place, and g keeps auction and bidder of every entry *)
    set (g := fun x => if N.eqb (al_auction x) a && N.eqb (al_bidder x) u then e else x).
    assert (forall x, al_auction (g x) = al_auction x /\ al_bidder (g x) = al_bidder x) as Hg.
    { intros x. unfold g. destruct (N.eqb (al_auction x) a && N.eqb (al_bidder x) u) eqn:E; [|split; reflexivity].
      apply andb_prop in E. destruct E as [E1 E2]. apply N.eqb_eq in E1. apply N.eqb_eq in E2.
      cbn. split; congruence. }
    rewrite filter_map_comm by (intros x; rewrite (proj1 (Hg x)); reflexivity).
    rewrite <- map_rev, find_map_keep by (intros x; rewrite (proj2 (Hg x)); reflexivity).
    destruct (find _ (rev _)) as [y|] eqn:Ey; cbn [option_map].
    + apply find_some in Ey. destruct Ey as [Hy Eu]. apply in_rev, filter_In in Hy. destruct Hy as [_ Ea].
      apply N.eqb_eq in Eu. apply N.eqb_eq in Ea. unfold g. rewrite Ea, Eu.
      destruct (N.eqb id a && N.eqb u' u); reflexivity.
    + destruct (N.eqb id a && N.eqb u' u) eqn:K; [exfalso|reflexivity].
      apply andb_prop in K. destruct K as [K1 K2]. apply N.eqb_eq in K1. apply N.eqb_eq in K2. subst id u'.
      unfold find_allowed in Ef. apply find_some in Ef. destruct Ef as [Hx Ex]. apply andb_prop in Ex.
      rewrite (find_none _ _ Ey x0) in Ex; [destruct Ex; discriminate|].
      apply -> in_rev. apply filter_In. split; [exact Hx|apply Ex].
  - (* no entry yet: e is appended, so it heads the reversed list that caps_of searches *)
    rewrite filter_app, rev_app_distr. cbn [filter al_auction e]. rewrite (N.eqb_sym a id).
    destruct (N.eqb id a); cbn [rev app find andb al_bidder e]; [|reflexivity].
    rewrite (N.eqb_sym u u'). destruct (N.eqb u' u); reflexivity.
Qed.

Section Updates.
  Variables s s' : state.
  Hypothesis H : state_same s s'.

  Lemma same_with_bank b xs : state_same (with_bank s b xs) (with_bank s' b xs).
  Proof. destruct H. constructor; try assumption; reflexivity. Qed.
  Lemma same_with_trace t : state_same (with_trace s t) (with_trace s' t).
  Proof. destruct H. constructor; try assumption; reflexivity. Qed.
  Lemma same_with_now t : state_same (with_now s t) (with_now s' t).
  Proof. destruct H. constructor; try assumption; reflexivity. Qed.
  Lemma same_with_listeners l : state_same (with_listeners s l) (with_listeners s' l).
  Proof. destruct H. constructor; try assumption; reflexivity. Qed.
  Lemma same_with_params p : state_same (with_params s p) (with_params s' p).
  Proof. destruct H. constructor; try assumption; reflexivity. Qed.
  Lemma same_with_aseq n : state_same (with_aseq s n) (with_aseq s' n).
  Proof. destruct H. constructor; try assumption; reflexivity. Qed.
  Lemma same_with_auctions l : state_same (with_auctions s l) (with_auctions s' l).
  Proof. destruct H. constructor; try assumption; reflexivity. Qed.
  Lemma same_with_bseq f f' : (forall id, f' id = f id) -> state_same (with_bseq s f) (with_bseq s' f').
  Proof. intros Hf. destruct H. constructor; try assumption; reflexivity. Qed.
  Lemma same_with_mlen f f' : (forall id, f' id = f id) -> state_same (with_mlen s f) (with_mlen s' f').
  Proof. intros Hf. destruct H. constructor; try assumption; reflexivity. Qed.

  Lemma same_put_auction a : state_same (put_auction s a) (put_auction s' a).
  Proof. unfold put_auction. rewrite (ss_auctions _ _ H). apply same_with_auctions. Qed.

  Lemma same_append_auction a :
    state_same (with_auctions s (st_auctions s ++ [a])) (with_auctions s' (st_auctions s' ++ [a])).
  Proof. rewrite (ss_auctions _ _ H). apply same_with_auctions. Qed.

  Lemma same_bump_bseq id :
    state_same (with_bseq s (upd (st_bseq s) id (st_bseq s id + 1)%N))
               (with_bseq s' (upd (st_bseq s') id (st_bseq s' id + 1)%N)).
  Proof.
    apply same_with_bseq. intros j. unfold upd. rewrite !(ss_bseq _ _ H). reflexivity.
  Qed.

  Lemma same_with_bids l l' :
    (forall id, filter (fun b => N.eqb (b_auction b) id) l' = filter (fun b => N.eqb (b_auction b) id) l) ->
    Permutation l' l -> state_same (with_bids s l) (with_bids s' l').
  Proof. intros Hof Hp. destruct H. constructor; try assumption; reflexivity. Qed.

  Lemma same_append_bid b :
    state_same (with_bids s (st_bids s ++ [b])) (with_bids s' (st_bids s' ++ [b])).
  Proof.
    apply same_with_bids; [|apply Permutation_app_tail, H].
    intros id. rewrite !filter_app. f_equal. apply (ss_bids_of _ _ H).
  Qed.

  Lemma same_map_bids g : (forall b, b_auction (g b) = b_auction b) ->
    state_same (with_bids s (map g (st_bids s))) (with_bids s' (map g (st_bids s'))).
  Proof.
    intros Hg. apply same_with_bids; [|apply Permutation_map, H].
    intros id. rewrite !filter_map_comm by (intros b; rewrite Hg; reflexivity). f_equal. apply (ss_bids_of _ _ H).
  Qed.

  Lemma same_put_bid b : state_same (put_bid s b) (put_bid s' b).
  Proof.
    unfold put_bid. apply same_map_bids. intros x.
    destruct (N.eqb (b_auction x) (b_auction b) && N.eqb (b_id x) (b_id b)) eqn:E; [|reflexivity].
    apply andb_prop in E. destruct E as [E _]. apply N.eqb_eq in E. symmetry. exact E.
  Qed.

  Lemma same_with_vqs l l' :
    (forall id, filter (fun v => N.eqb (v_auction v) id) l' = filter (fun v => N.eqb (v_auction v) id) l) ->
    Permutation l' l -> state_same (with_vqs s l) (with_vqs s' l').
  Proof. intros Hof Hp. destruct H. constructor; try assumption; reflexivity. Qed.

  Lemma same_append_vqs l :
    state_same (with_vqs s (st_vqs s ++ l)) (with_vqs s' (st_vqs s' ++ l)).
  Proof.
    apply same_with_vqs; [|apply Permutation_app_tail, H].
    intros id. rewrite !filter_app. f_equal. apply (ss_vqs_of _ _ H).
  Qed.

  Lemma same_map_vqs g : (forall v, v_auction (g v) = v_auction v) ->
    state_same (with_vqs s (map g (st_vqs s))) (with_vqs s' (map g (st_vqs s'))).
  Proof.
    intros Hg. apply same_with_vqs; [|apply Permutation_map, H].
    intros id. rewrite !filter_map_comm by (intros v; rewrite Hg; reflexivity). f_equal. apply (ss_vqs_of _ _ H).
  Qed.

  Lemma same_put_allowed a u m : state_same (put_allowed s a u m) (put_allowed s' a u m).
  Proof.
    assert (forall a' u', find_allowed (put_allowed s' a u m) a' u' = find_allowed (put_allowed s a u m) a' u') as Hfind.
    { intros a' u'. rewrite !FrameFacts.find_put_allowed, (ss_find_allowed _ _ H). reflexivity. }
    assert (forall id u', caps_of (allowed_of (put_allowed s' a u m) id) u'
                          = caps_of (allowed_of (put_allowed s a u m) id) u') as Hcaps.
    { intros id u'. rewrite !caps_put_allowed, (ss_caps _ _ H). reflexivity. }
    pose proof (ss_allowed_perm _ _ H) as Hap.
    (* ss_find_allowed and ss_caps are the two facts above; they go through the case split in the goal, so that
       each branch has them about the list it stores and `assumption` finds them *)
    revert Hfind Hcaps. unfold put_allowed. rewrite (ss_find_allowed _ _ H).
    destruct (find_allowed s a u); intros Hfind Hcaps; destruct H; constructor; try assumption; try reflexivity.
    - apply Permutation_map. exact Hap.
    - apply Permutation_app_tail. exact Hap.
  Qed.
End Updates.

Lemma same_set_flags s s' id m : state_same s s' -> state_same (set_flags s id m) (set_flags s' id m).
Proof.
  intros H. unfold set_flags. apply same_with_mlen.
  - apply same_map_bids; [exact H|]. intros b. destruct (N.eqb (b_auction b) id); reflexivity.
  - intros j. cbn [st_mlen with_bids]. unfold upd. rewrite (ss_mlen _ _ H). reflexivity.
Qed.

Lemma same_send s s' f t d a : state_same s s' -> res_same (send s f t d a) (send s' f t d a).
Proof.
  intros H. unfold send. rewrite (ss_bal _ _ H), (ss_trace _ _ H), (ss_xfers _ _ H).
  destruct (a =? 0); [exact H|].
  destruct (a <? 0); [cbn; auto|].
  destruct (st_bal s f d <? a); [cbn; auto|].
  apply same_with_bank. exact H.
Qed.

Lemma same_send_coins f t cs : forall s s', state_same s s' -> res_same (send_coins s f t cs) (send_coins s' f t cs).
Proof.
  induction cs as [|[d a] rest IH]; intros s s' H.
  - exact H.
  - cbn [send_coins]. apply (bind_rel state_same); [apply same_send; exact H|]. intros s1 s1' H1. apply IH. exact H1.
Qed.

Lemma same_fund_pool s s' u cs : state_same s s' -> res_same (fund_pool s u cs) (fund_pool s' u cs).
Proof. apply same_send_coins. Qed.

Lemma same_call_hook s s' k args : state_same s s' -> res_same (call_hook s k args) (call_hook s' k args).
Proof.
  intros H. unfold call_hook. rewrite (ss_listeners _ _ H), (ss_trace _ _ H).
  destruct (dispatch (st_listeners s) 0%N k args) as [ok cs]. destruct ok.
  - apply same_with_trace. exact H.
  - cbn. auto.
Qed.

Lemma same_pay_out from d f us : forall s s', state_same s s' -> res_same (pay_out s from d us f) (pay_out s' from d us f).
Proof.
  induction us as [|u rest IH]; intros s s' H.
  - exact H.
  - cbn [pay_out]. destruct (f u =? 0); [apply IH; exact H|].
    apply (bind_rel state_same); [apply same_send; exact H|]. intros s1 s1' H1. apply IH. exact H1.
Qed.

Tactic Notation "bind_step" constr(lem) "as" ident(a) ident(b) ident(Hab) :=
  apply (bind_rel state_same); [apply lem; assumption|]; intros a b Hab.

(* both creations, once their own checks have passed: fee, selling escrow, the two hooks around the new record *)
Definition open_auction (s : state) u fee id sd samt (mk : Z -> auction) k1 k2 args : res state :=
  bind (fund_pool s u fee) (fun s1 => bind (send s1 (User u) (Escrow Selling id) sd samt) (fun s2 =>
  bind (call_hook s2 k1 args) (fun s3 =>
  bind (call_hook (with_auctions s3 (st_auctions s3 ++ [mk (st_now s2)])) k2 (zN id :: args)) Ok))).

Lemma same_open s s' u fee id sd samt mk k1 k2 args : state_same s s' ->
  res_same (open_auction s u fee id sd samt mk k1 k2 args) (open_auction s' u fee id sd samt mk k1 k2 args).
Proof.
  intros H. unfold open_auction. bind_step same_fund_pool as s1 s1' H1.
  bind_step same_send as s2 s2' H2. rewrite (ss_now _ _ H2).
  bind_step same_call_hook as s3 s3' H3.
  apply (bind_rel state_same); [apply same_call_hook; apply same_append_auction; assumption|].
  intros s4 s4' H4. exact H4.
Qed.

Lemma same_create_fixed s s' u up price sd samt pd vs start end_ : state_same s s' ->
  res_same (create_fixed s u up price sd samt pd vs start end_) (create_fixed s' u up price sd samt pd vs start end_).
Proof.
  intros H. unfold create_fixed. rewrite (ss_now _ _ H), (ss_aseq _ _ H).
  destruct (end_ <? st_now s); [apply fail_rel; exact H|].
  destruct (Nat.ltb MaxNumVestingSchedules (length vs)); [apply fail_rel; exact H|].
  change (st_params (with_aseq s' (st_aseq s + 1)%N)) with (st_params s').
  change (st_params (with_aseq s (st_aseq s + 1)%N)) with (st_params s).
  rewrite (ss_params _ _ H).
  apply (same_open _ _ u _ (st_aseq s) sd samt (fun now => new_auction (st_aseq s) FixedPrice u up price sd samt pd vs
           start end_ (if start <=? now then Started else StandBy) samt 0 0 0)).
  apply same_with_aseq. exact H.
Qed.

Lemma same_create_batch s s' u up price minp sd samt pd vs maxr rate start end_ : state_same s s' ->
  res_same (create_batch s u up price minp sd samt pd vs maxr rate start end_)
           (create_batch s' u up price minp sd samt pd vs maxr rate start end_).
Proof.
  intros H. unfold create_batch. rewrite (ss_now _ _ H), (ss_aseq _ _ H).
  destruct (end_ <? st_now s); [apply fail_rel; exact H|].
  destruct (Nat.ltb MaxNumVestingSchedules (length vs)); [apply fail_rel; exact H|].
  destruct (N.ltb MaxExtendedRound maxr); [apply fail_rel; exact H|].
  change (st_params (with_aseq s' (st_aseq s + 1)%N)) with (st_params s').
  change (st_params (with_aseq s (st_aseq s + 1)%N)) with (st_params s).
  rewrite (ss_params _ _ H).
  apply (same_open _ _ u _ (st_aseq s) sd samt (fun now => new_auction (st_aseq s) Batch u up price sd samt pd vs
           start end_ (if start <=? now then Started else StandBy) 0 minp maxr rate)).
  apply same_with_aseq. exact H.
Qed.

Lemma same_cancel s s' u up id : state_same s s' -> res_same (cancel s u up id) (cancel s' u up id).
Proof.
  intros H. unfold cancel. rewrite (find_auction_same _ _ H), (ss_bal _ _ H).
  destruct (find_auction s id) as [a|]; [|apply fail_rel; exact H].
  destruct (negb (N.eqb (a_auctioneer a) u)); [apply fail_rel; exact H|].
  destruct (negb (status_eqb (a_status a) StandBy)); [apply fail_rel; exact H|].
  bind_step same_send as s1 s1' H1. bind_step same_call_hook as s2 s2' H2.
  apply same_put_auction. assumption.
Qed.

Lemma validate_fixed_bid_same s s' a b : state_same s s' ->
  validate_fixed_bid s' a b = validate_fixed_bid s a b.
Proof.
  intros H. unfold validate_fixed_bid.
  rewrite !(fail_same s s') by exact H. rewrite (ss_bids_of _ _ H), (ss_find_allowed _ _ H). reflexivity.
Qed.

Lemma validate_batch_bid_same s s' a b d : state_same s s' ->
  validate_batch_bid s' a b d = validate_batch_bid s a b d.
Proof.
  intros H. unfold validate_batch_bid.
  rewrite !(fail_same s s') by exact H. rewrite (ss_find_allowed _ _ H). reflexivity.
Qed.

Definition pair_same (x y : state * bid) : Prop := state_same (fst x) (fst y) /\ snd x = snd y.

Lemma same_batch_bid t t' a b want from to d amt : state_same t t' ->
  res_rel pair_same
    (bind (validate_batch_bid t a b want) (fun _ => bind (send t from to d amt) (fun x => Ok (x, b))))
    (bind (validate_batch_bid t' a b want) (fun _ => bind (send t' from to d amt) (fun x => Ok (x, b)))).
Proof.
  intros Hb. rewrite (validate_batch_bid_same t t' a b _ Hb).
  apply (bind_rel eq); [apply res_rel_eq|]. intros _ _ _.
  bind_step same_send as s2 s2' H2. cbn [res_rel]. split; [assumption|reflexivity].
Qed.

Lemma same_place_bid s s' u id bt price d amt : state_same s s' ->
  res_same (place_bid s u id bt price d amt) (place_bid s' u id bt price d amt).
Proof.
  intros H. unfold place_bid. rewrite (find_auction_same _ _ H), (ss_find_allowed _ _ H), (ss_params _ _ H).
  destruct (find_auction s id) as [a|]; [|apply fail_rel; exact H].
  destruct (negb (status_eqb (a_status a) Started)); [apply fail_rel; exact H|].
  destruct (atype_eqb (a_type a) Batch && (price <? a_min_price a)); [apply fail_rel; exact H|].
  destruct (find_allowed s id u) as [al|]; [|apply fail_rel; exact H].
  bind_step same_fund_pool as s0 s1 H0.
  rewrite (ss_bseq _ _ H0 id).
  pose proof (same_bump_bseq _ _ H0 id) as Hb. rewrite (ss_bseq _ _ H0 id) in Hb.
  set (t := with_bseq s0 (upd (st_bseq s0) id (st_bseq s0 id + 1)%N)) in *.
  set (t' := with_bseq s1 (upd (st_bseq s1) id (st_bseq s0 id + 1)%N)) in *.
  set (b := {| b_auction := id; b_id := (st_bseq s0 id + 1)%N; b_bidder := u; b_type := bt; b_price := price;
               b_denom := d; b_amt := amt; b_matched := false |}).
  apply (bind_rel pair_same).
  - destruct bt; [|apply same_batch_bid; exact Hb..].
    rewrite (validate_fixed_bid_same t t' a b Hb).
    apply (bind_rel eq); [apply res_rel_eq|]. intros _ _ _.
    bind_step same_send as s2 s2' H2. cbn [res_rel]. split; [|reflexivity]. cbn [fst]. apply same_put_auction. assumption.
  - intros [x bx] [y by_] [Hxy Eb]. cbn [fst snd] in Hxy, Eb. subst by_.
    bind_step same_call_hook as s3 s3' H3. apply same_append_bid. assumption.
Qed.

Lemma same_modify_bid s s' u id bid_id price d amt : state_same s s' ->
  res_same (modify_bid s u id bid_id price d amt) (modify_bid s' u id bid_id price d amt).
Proof.
  intros H. unfold modify_bid. rewrite (find_auction_same _ _ H), (find_bid_same _ _ H).
  destruct (find_auction s id) as [a|]; [|apply fail_rel; exact H].
  destruct (negb (status_eqb (a_status a) Started)); [apply fail_rel; exact H|].
  destruct (negb (atype_eqb (a_type a) Batch)); [apply fail_rel; exact H|].
  destruct (find_bid s id bid_id) as [b|]; [|apply fail_rel; exact H].
  destruct (negb (N.eqb (b_bidder b) u)); [apply fail_rel; exact H|].
  destruct (price <? a_min_price a); [apply fail_rel; exact H|].
  destruct (negb (N.eqb (b_denom b) d)); [apply fail_rel; exact H|].
  destruct ((price <? b_price b) || (amt <? b_amt b)); [apply fail_rel; exact H|].
  destruct ((price =? b_price b) && (amt =? b_amt b)); [apply fail_rel; exact H|].
  destruct (match b_type b with
            | BWorth => (d, amt - b_amt b)
            | BMany => (a_pay_denom a, pay_of_qty amt price - pay_of_qty (b_amt b) (b_price b))
            | BFixed => (d, 0)
            end) as [dd diff].
  apply (bind_rel state_same).
  - destruct (0 <? diff); [apply same_send; exact H|exact H].
  - intros s1 s1' H1. bind_step same_call_hook as s2 s2' H2. apply same_put_bid. assumption.
Qed.

Lemma same_add_entries a l : forall s s', state_same s s' -> res_same (add_entries s a l) (add_entries s' a l).
Proof.
  induction l as [|[[ea who] max] rest IH]; intros s s' H.
  - exact H.
  - cbn [add_entries]. destruct who as [up u|]; [|apply fail_rel; exact H].
    destruct max as [m|]; [|apply fail_rel; exact H].
    destruct (negb (0 <? m)); [apply fail_rel; exact H|].
    destruct (a_sell_amt a <? m); [apply fail_rel; exact H|].
    apply IH. apply same_put_allowed. exact H.
Qed.

Lemma same_api_add s s' id l : state_same s s' -> res_same (api_add s id l) (api_add s' id l).
Proof.
  intros H. unfold api_add. destruct l as [|e l]; [apply fail_rel; exact H|].
  rewrite (find_auction_same _ _ H).
  destruct (find_auction s id) as [a|]; [|apply fail_rel; exact H].
  bind_step same_call_hook as s1 s1' H1. apply same_add_entries. assumption.
Qed.

Lemma same_api_update s s' id u max : state_same s s' -> res_same (api_update s id u max) (api_update s' id u max).
Proof.
  intros H. unfold api_update. rewrite (find_auction_same _ _ H), (ss_find_allowed _ _ H).
  destruct (find_auction s id) as [a|]; [|apply fail_rel; exact H].
  destruct (find_allowed s id u) as [x|]; [|apply fail_rel; exact H].
  destruct (check_pos max) as [m|]; [|apply fail_rel; exact H].
  bind_step same_call_hook as s1 s1' H1. apply same_put_allowed. assumption.
Qed.

Lemma same_update_params s s' auth cfee bfee period : state_same s s' ->
  res_same (update_params s auth cfee bfee period) (update_params s' auth cfee bfee period).
Proof.
  intros H. unfold update_params. destruct auth as [|[up u|]].
  - destruct (check_coins cfee None) as [c|]; [|apply fail_rel; exact H].
    destruct (check_coins bfee None) as [b|]; [|apply fail_rel; exact H].
    apply same_with_params. exact H.
  - apply fail_rel; exact H.
  - apply fail_rel; exact H.
Qed.

Lemma same_handle s s' c : state_same s s' -> res_same (handle s c) (handle s' c).
Proof.
  intros H. destruct c; cbn [handle].
  - apply same_create_fixed; exact H.
  - apply same_create_batch; exact H.
  - apply same_cancel; exact H.
  - apply same_place_bid; exact H.
  - apply same_modify_bid; exact H.
  - rewrite (ss_switch _ _ H). destruct (st_switch s); [apply same_api_add; exact H|apply fail_rel; exact H].
  - apply same_update_params; exact H.
Qed.

Definition out_same (x y : outcome * state) : Prop := fst x = fst y /\ state_same (snd x) (snd y).

Lemma same_commit s s' r r' : state_same s s' -> res_same r r' -> out_same (commit s r) (commit s' r').
Proof.
  intros H Hr. destruct r as [a|c t], r' as [b|c' t']; cbn in Hr; try contradiction.
  - split; [reflexivity|exact Hr].
  - destruct Hr as [-> ->]. split; [reflexivity|]. cbn [snd commit]. apply same_with_trace. exact H.
Qed.

Lemma same_deliver_tx s s' m : state_same s s' -> out_same (deliver_tx s m) (deliver_tx s' m).
Proof.
  intros H. unfold deliver_tx. destruct (check_basic m) as [c|].
  - apply same_commit; [exact H|apply same_handle; exact H].
  - split; [reflexivity|exact H].
Qed.

Theorem step_congr_tx s s' m : state_same s s' ->
  fst (step s (OTx m)) = fst (step s' (OTx m)) /\ state_same (snd (step s (OTx m))) (snd (step s' (OTx m))).
Proof. intros H. exact (same_deliver_tx s s' m H). Qed.

(* Checker link for C12 (cancellation): Checkers.c12_ok holds of every transition of the model from a
   state satisfying the invariant. *)
From Coq Require Import ZArith NArith List Bool Arith Lia.
From FR Require Import Types Step Model Spec Checkers.
From FR.Proofs Require Import InvDefs FrameFacts BlockFacts BlockWalk LifeTheorems InvAll FixedFacts Chk08.
From FR.Proofs Require EqbFacts BankFacts EscrowBase TxFacts PrecondFacts PrecondEffects Ledger ChkSettle Chk18.
Import ListNotations.
Open Scope Z_scope.

Lemma standby_escrow_covers_offer s id a :
  Inv s -> find_auction s id = Some a -> a_status a = StandBy ->
  a_sell_amt a <= st_bal s (Escrow Selling id) (a_sell_denom a).
Proof.
  intros I Fa St. destruct (inv_escrow _ I) as [_ E]. specialize (E Selling id (a_sell_denom a)).
  rewrite (EscrowBase.owed_some _ _ _ _ _ Fa), St, N.eqb_refl in E. exact E.
Qed.

(* a cancelled auction publishes no remainder: CancelAuction zeroes that of a fixed price auction, a batch auction has none *)
Lemma cancel_of_remaining s id a : Inv s -> find_auction s id = Some a -> a_remaining (TxFacts.cancel_of a) = 0.
Proof.
  intros I Fa. unfold TxFacts.cancel_of. destruct (a_type a) eqn:Ty; [reflexivity|].
  pose proof (inv_auctions _ I) as Wf. unfold auctions_wf in Wf. rewrite Forall_forall in Wf.
  destruct (find_auction_some _ _ _ Fa) as [Ha _]. destruct (awf_batch _ (Wf a Ha) Ty) as (_ & _ & R & _). exact R.
Qed.

Theorem c12_ok_model s o : Inv s -> c12_ok (model_trans s o) = true.
Proof.
  intros I. rewrite model_trans_eq. cbv zeta. unfold c12_ok. cbn [t_post t_pre t_op t_class t_xfers].
  apply andb_true_iff. split.
  - destruct o as [m|id l|id u max|t orc|t orc k|from to d amt|ls|]; try reflexivity.
    destruct m as [| |who id| | | |]; try reflexivity.
    (* a cancel message: accepted exactly under Spec.precond; if accepted, the state is cancel_post *)
    pose proof (class_ok_precond s (MCancel who id) I) as Hacc. unfold precond in Hacc. cbn [check_basic] in Hacc.
    cbn [step] in *. set (r := deliver_tx (ghost_reset s) (MCancel who id)) in *.
    assert (Hrej : oclass_eqb (class_of (fst r)) KOk = false -> oclass_eqb (class_of (fst r)) KRej = true).
    { intros Hn. destruct (PrecondEffects.deliver_outcome (ghost_reset s) (MCancel who id)) as [H|(c & H)];
        fold r in H; rewrite H in *; [discriminate Hn|reflexivity]. }
    destruct who as [up u|]; [|apply Hrej; destruct (oclass_eqb _ KOk); [discriminate Hacc|reflexivity]].
    destruct (find_auction s id) as [a|] eqn:Fa; [|apply Hrej; destruct (oclass_eqb _ KOk); [discriminate Hacc|reflexivity]].
    rewrite Hacc. cbn [andb]. destruct (oclass_eqb (class_of (fst r)) KOk) eqn:Ek; [|reflexivity].
    apply class_ok_iff in Ek.
    destruct (PrecondEffects.accepted_cancel (ghost_reset s) (AGood up u) id Ek) as (up' & u' & a' & _ & Fa' & G & E).
    change (find_auction s id = Some a') in Fa'. rewrite Fa in Fa'. injection Fa' as <-. pose proof (TxFacts.cn_standby G) as St.
    fold r in E. rewrite E.
    rewrite (TxFacts.cancel_post_find (ghost_reset s) u' up' id a Fa), (cancel_of_remaining s id a I Fa).
    replace (a_status (TxFacts.cancel_of a)) with Cancelled by (unfold TxFacts.cancel_of; destruct (a_type a); reflexivity).
    rewrite TxFacts.cancel_post_bal.
    change (st_xfers (TxFacts.cancel_post (ghost_reset s) u' up' id a)) with (TxFacts.cancel_xf s id a).
    unfold TxFacts.cancel_xf. change (st_bal (ghost_reset s)) with (st_bal s).
    rewrite Ledger.net_send_xf, Ledger.sum_xfers_send. unfold from_to. cbn [Ledger.mkx x_from x_to x_denom addr_eqb].
    rewrite !N.eqb_refl. cbn [role_eqb andb status_eqb Z.eqb BankFacts.ind].
    set (bal := st_bal s (Escrow Selling id) (a_sell_denom a)).
    rewrite (proj2 (Z.eqb_eq (bal + (0 - bal)) 0)) by lia. rewrite Z.eqb_refl. cbn [andb].
    apply andb_true_iff. split.
    + apply Z.leb_le. exact (standby_escrow_covers_offer s id a I Fa St).
    + unfold Ledger.send_xf. destruct (bal =? 0); reflexivity.
  - apply forallb_forall. intros [a a'] Hp. apply ChkSettle.in_paired in Hp. cbn [t_pre t_post] in Hp. destruct Hp as [Ha F'].
    cbn [fst snd]. destruct (status_eqb (a_status a) Cancelled) eqn:St; [|reflexivity].
    apply EqbFacts.status_eqb_eq in St.
    rewrite (astep_cancelled _ _ _ _ (model_pair s o a a' I Ha F') St). cbn [negb orb]. apply EqbFacts.auction_eqb_refl.
Qed.

(* x/bank as the model has it (Bank.v): the exact state a successful send leaves (send_iff, sent) and what a move does
   to every balance (move_spec). *)
From Coq Require Import ZArith List Bool Lia.
From FR Require Import Types Bank.
From FR.Proofs Require Import EqbFacts.
Import ListNotations.
Open Scope Z_scope.

Lemma with_bank_eta s : with_bank s (st_bal s) (st_xfers s) = s.
Proof. destruct s; reflexivity. Qed.

(* the state a successful send leaves: a zero amount moves nothing and logs nothing *)
Definition sent (s : state) (from to : addr) (d : N) (amt : Z) : state :=
  with_bank s (if amt =? 0 then st_bal s else move (st_bal s) from to d amt)
    (st_xfers s ++ if amt =? 0 then [] else [{| x_from := from; x_to := to; x_denom := d; x_amt := amt |}]).

Lemma send_iff s from to d amt s1 :
  send s from to d amt = Ok s1 <->
  (amt = 0 \/ (0 < amt /\ amt <= st_bal s from d)) /\ s1 = sent s from to d amt.
Proof.
  unfold send, sent. destruct (Z.eqb_spec amt 0) as [E0|E0].
  - rewrite app_nil_r, with_bank_eta. split.
    + intros H. injection H as <-. split; [left; exact E0|reflexivity].
    + intros [_ ->]. reflexivity.
  - destruct (Z.ltb_spec amt 0) as [E1|E1]; [split; [intros H; discriminate H|lia]|].
    destruct (Z.ltb_spec (st_bal s from d) amt) as [E2|E2]; [split; [intros H; discriminate H|lia]|].
    split.
    + intros H. injection H as <-. split; [right; lia|reflexivity].
    + intros [_ ->]. reflexivity.
Qed.

(* the indicator of c, times a: balances and nets are sums of these *)
Definition ind (c : bool) (a : Z) : Z := if c then a else 0.

Lemma move_spec b f t d a x d' :
  move b f t d a x d' = b x d' - ind (addr_eqb x f && N.eqb d' d) a + ind (addr_eqb x t && N.eqb d' d) a.
Proof.
  unfold move, bal_upd, ind. rewrite !N.eqb_refl, !andb_true_r.
  destruct (N.eqb d' d) eqn:Ed; rewrite ?andb_false_r, ?andb_true_r; [|lia].
  apply N.eqb_eq in Ed. subst d'.
  destruct (addr_eqb x t) eqn:Et.
  - apply addr_eqb_eq in Et. subst x. destruct (addr_eqb t f) eqn:Ef.
    + apply addr_eqb_eq in Ef. subst t. lia.
    + lia.
  - destruct (addr_eqb x f) eqn:Ef; [apply addr_eqb_eq in Ef; subst x|]; lia.
Qed.

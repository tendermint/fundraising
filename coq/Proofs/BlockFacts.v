(* The vocabulary of block processing: the states that differ in the bank and the trace only (bt_only); what
   BeginBlocker decides for one auction (settled_st, decision, extended); which vesting entries are due (vq_due,
   last_due_rec) and that the entries of an auction carry its id; the record a block leaves (block_rel, with block_out
   for inversion and block_out_timing); idle, an auction with nothing due; and that block_rel and idle read only the
   slice of the auction. *)
From Coq Require Import ZArith List Bool Lia.
From FR Require Import Dec Types Match Step.
From FR.Proofs Require Import FrameFacts.
Import ListNotations.
Open Scope Z_scope.

Definition bt_only (id : N) (s s1 : state) : Prop :=
  exists b xs tr, s1 = with_trace (with_bank s b xs) tr /\ esc_keep id (st_bal s) b.

Definition settled_st (a : auction) : status := match a_scheds a with [] => Finished | _ => VestingS end.
Lemma settled_st_cases a : settled_st a = VestingS \/ settled_st a = Finished.
Proof. unfold settled_st. destruct (a_scheds a); auto. Qed.

Definition oracle_ids (orc : list (N * list N)) (id : N) : list N :=
  match find (fun x => N.eqb (fst x) id) orc with Some (_, l) => l | None => [] end.
(* the decision of CloseBatchAuction: true is another round (extended), false is settlement *)
Definition decision (s : state) (a : auction) (mi : minfo) : bool :=
  negb (N.eqb (a_max_round a + 1) (N.of_nat (length (a_ends a))))
  && ((st_mlen s (a_id a) =? 0)
      || extend_rule (Z.of_nat (length (mi_matched mi))) (st_mlen s (a_id a)) (a_rate a)).
Lemma decision_if s a mi :
  decision s a mi = if N.eqb (a_max_round a + 1) (N.of_nat (length (a_ends a))) then false
                    else if st_mlen s (a_id a) =? 0 then true
                    else extend_rule (Z.of_nat (length (mi_matched mi))) (st_mlen s (a_id a)) (a_rate a).
Proof. unfold decision. destruct (N.eqb _ _); [reflexivity|]. destruct (_ =? 0); reflexivity. Qed.

Lemma decision_true_iff s a mi :
  decision s a mi = true <->
  N.of_nat (length (a_ends a)) <> (a_max_round a + 1)%N
  /\ (st_mlen s (a_id a) = 0
      \/ extend_rule (Z.of_nat (length (mi_matched mi))) (st_mlen s (a_id a)) (a_rate a) = true).
Proof.
  unfold decision. rewrite andb_true_iff, negb_true_iff, N.eqb_neq, orb_true_iff, Z.eqb_eq.
  split; intros [H1 H2]; (split; [congruence|exact H2]).
Qed.

Definition extended (s : state) (a : auction) (mi : minfo) : auction :=
  set_ends (set_matched_price a (mi_price mi)) (a_ends a ++ [last_end a + p_period (st_params s) * day_ns]).

(* keeper.ReleaseVestingPayingCoin (release_loop): the queue entries it pays out, and whether the last is among them.
   last_due_rec is FrameFacts.last_due (which block_rel is stated with) by recursion from the front: last_due_eq *)
Definition vq_due (t : Z) (v : vq) : bool := (v_time v <=? t) && negb (v_released v).
Fixpoint last_due_rec (t : Z) (vs : list vq) : bool :=
  match vs with
  | [] => false
  | v :: rest => match rest with [] => vq_due t v | _ => last_due_rec t rest end
  end.

Lemma last_due_eq t vs : last_due t vs = last_due_rec t vs.
Proof.
  unfold last_due. induction vs as [|v rest IH]; [reflexivity|].
  cbn [last_due_rec rev]. destruct rest as [|r rs].
  - cbn [rev app]. unfold vq_due. apply andb_comm.
  - rewrite <- IH. cbn [rev]. destruct (rev rs ++ [r]) as [|x l] eqn:E.
    + destruct (rev rs); discriminate E.
    + reflexivity.
Qed.

Lemma release_loop_idle s a t vs :
  (forall v, In v vs -> vq_due t v = false) -> release_loop s a t vs = Ok s.
Proof.
  induction vs as [|v rest IH]; cbn [release_loop]; intros H; [reflexivity|].
  fold (vq_due t v). rewrite (H v (or_introl eq_refl)).
  apply IH. intros x Hx.
  apply H. right. exact Hx.
Qed.

(* the entries queued for an auction, and those in its queue, carry its id *)
Lemma split_auction a total : forall vs rem v, In v (split a total rem vs) -> v_auction v = a_id a.
Proof.
  induction vs as [|x vs IH]; cbn [split]; intros rem v HI; [contradiction|].
  destruct HI as [<-|HI]; [reflexivity|]. eapply IH. exact HI.
Qed.
Lemma vqs_of_auction s id v : In v (vqs_of s id) -> v_auction v = id.
Proof.
  unfold vqs_of. intros H. apply filter_In in H.
  destruct H as [_ H]. neqb. exact H.
Qed.

Definition block_rel (t : Z) (orc : list (N * list N)) (s : state) (a a' : auction) : Prop :=
  match a_status a with
  | StandBy => a' = if a_start a <=? t then set_status a Started else a
  | Started =>
      if last_end a <=? t then
        match a_type a with
        | FixedPrice => a' = set_status a (settled_st a)
        | Batch =>
            exists order mi,
              valid_order (bids_of s (a_id a)) (oracle_ids orc (a_id a)) = Some order /\
              calc_batch a (bids_of s (a_id a)) order (allowed_of s (a_id a)) = Some mi /\
              a' = if decision s a mi then extended s a mi
                   else set_status (set_matched_price a (mi_price mi)) (settled_st a)
        end
      else a' = a
  | VestingS => a' = if last_due t (vqs_of s (a_id a)) then set_status a Finished else a
  | Finished | Cancelled => a' = a
  end.

(* block_rel by cases, for inversion *)
Inductive block_out (t : Z) (orc : list (N * list N)) (s : state) (a : auction) : auction -> Prop :=
| BoSame :
    match a_status a with
    | StandBy => t < a_start a
    | Started => t < last_end a
    | VestingS => last_due t (vqs_of s (a_id a)) = false
    | Finished | Cancelled => True
    end -> block_out t orc s a a
| BoOpen : a_status a = StandBy -> a_start a <= t -> block_out t orc s a (set_status a Started)
| BoFixed :
    a_status a = Started -> last_end a <= t -> a_type a = FixedPrice ->
    block_out t orc s a (set_status a (settled_st a))
| BoBatch order mi :
    a_status a = Started -> last_end a <= t -> a_type a = Batch ->
    valid_order (bids_of s (a_id a)) (oracle_ids orc (a_id a)) = Some order ->
    calc_batch a (bids_of s (a_id a)) order (allowed_of s (a_id a)) = Some mi ->
    block_out t orc s a (if decision s a mi then extended s a mi
                         else set_status (set_matched_price a (mi_price mi)) (settled_st a))
| BoFinish :
    a_status a = VestingS -> last_due t (vqs_of s (a_id a)) = true -> block_out t orc s a (set_status a Finished).

Lemma block_rel_out t orc s a a' : block_rel t orc s a a' -> block_out t orc s a a'.
Proof.
  unfold block_rel. destruct (a_status a) eqn:St.
  - destruct (Z.leb_spec (a_start a) t) as [L|L]; intros ->; [apply BoOpen; assumption|].
    apply BoSame. rewrite St. exact L.
  - destruct (Z.leb_spec (last_end a) t) as [L|L]; [|intros ->; apply BoSame; rewrite St; exact L].
    destruct (a_type a) eqn:Ty; [intros ->; apply BoFixed; assumption|].
    intros (order & mi & HV & HC & ->). apply (BoBatch t orc s a order mi); assumption.
  - destruct (last_due t (vqs_of s (a_id a))) eqn:D; intros ->; [apply BoFinish; assumption|].
    apply BoSame. rewrite St. exact D.
  - intros ->. apply BoSame.
    rewrite St. exact I.
  - intros ->. apply BoSame.
    rewrite St. exact I.
Qed.

(* the timing of a block, status by status: what becomes of the record exactly when its time has come *)
Lemma block_out_timing t orc s a a' :
  block_out t orc s a a' ->
  match a_status a with
  | StandBy => (a_status a' = Started <-> a_start a <= t) /\ (t < a_start a -> a' = a) /\ a_status a' <> Cancelled
  | Started => ((a_status a' = VestingS \/ a_status a' = Finished \/ exists e, a_ends a' = a_ends a ++ [e])
                <-> last_end a <= t)
               /\ (t < last_end a -> a' = a)
  | VestingS => (a_status a' = Finished <-> last_due t (vqs_of s (a_id a)) = true)
                /\ (last_due t (vqs_of s (a_id a)) = false -> a' = a)
  | Finished | Cancelled => a' = a
  end.
Proof.
  pose proof settled_st_cases as Hs.
  intros O. destruct O as [H|St Due|St Due _|order mi St Due _ _ _|St Due].
  - destruct (a_status a) eqn:St; try reflexivity.
    + repeat split; intros; try lia; try discriminate.
    + split; [|reflexivity]. split; [|intros; lia]. intros [E|[E|(e & E)]]; try congruence.
      apply (f_equal (@length Z)) in E. rewrite app_length in E. cbn [length] in E. lia.
    + rewrite H. repeat split; intros; try reflexivity; congruence.
  - rewrite St. cbn [a_status set_status]. repeat split; intros; try lia; try discriminate.
  - rewrite St. split; [|intros; lia]. split; [intros _; exact Due|intros _].
    cbn [a_status set_status]. destruct (Hs a) as [-> | ->]; auto.
  - rewrite St. split; [|intros; lia]. split; [intros _; exact Due|intros _]. destruct (decision s a mi).
    + right; right. eexists. reflexivity.
    + cbn [a_status set_status]. destruct (Hs a) as [-> | ->]; auto.
  - rewrite St, Due. cbn [a_status set_status]. repeat split; intros; try reflexivity; discriminate.
Qed.

Definition idle (t : Z) (s : state) (a : auction) : Prop :=
  match a_status a with
  | StandBy => t < a_start a
  | Started => t < last_end a
  | VestingS => forall v, In v (vqs_of s (a_id a)) -> vq_due t v = false
  | Finished | Cancelled => True
  end.

Definition block_orc (o : op) : list (N * list N) :=
  match o with OBlock _ orc | OFaultBlock _ orc _ => orc | _ => [] end.

(* block_rel and idle read only the slice of the auction and the parameters *)
Lemma block_rel_slice t orc s s1 a a' :
  slice_eq (a_id a) s s1 -> st_params s1 = st_params s -> block_rel t orc s1 a a' -> block_rel t orc s a a'.
Proof.
  intros [_ Eb Ea Ev _ Em _] Ep. unfold block_rel, decision, extended.
  rewrite Eb, Ea, Ev, Em, Ep. auto.
Qed.

Lemma idle_slice t s s1 a : slice_eq (a_id a) s s1 -> idle t s a -> idle t s1 a.
Proof.
  intros [_ _ _ Ev _ _ _]. unfold idle.
  rewrite Ev. auto.
Qed.

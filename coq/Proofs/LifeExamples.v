(* A small concrete history with two auctions, used by the Examples of C08.v, C13_bounded.v and C19.v. *)
From Coq Require Import ZArith NArith List.
From FR Require Import Dec Types Model.
From FR.Proofs Require Import FrameFacts LifeTheorems.
Import ListNotations.
Open Scope Z_scope.

Definition ex_init : state :=
  {| st_params := {| p_cfee := [(0%N, 10)]; p_bfee := [(0%N, 1)]; p_period := 1 |};
     st_auctions := []; st_bids := []; st_allowed := []; st_vqs := [];
     st_aseq := 0; st_bseq := fun _ => 0%N; st_mlen := fun _ => 0;
     st_bal := fun a _ => match a with User _ => 1000000 | _ => 0 end;
     st_now := 100; st_listeners := []; st_switch := true; st_xfers := []; st_trace := [] |}.

Definition coin (d : N) (a : Z) : mcoin := {| mc_denom := Some d; mc_amt := Some a |}.

(* auction 0: fixed price, already started; auction 1: batch with 2 extension rounds and one vesting
   instalment, still in stand-by *)
Definition ex_create_fixed : op :=
  OTx (MCreateFixed (AGood false 0) (Some P) (coin 1 1000) (Some 2%N) [] 50 200).
Definition ex_create_batch : op :=
  OTx (MCreateBatch (AGood false 1) (Some P) (Some P) (coin 1 500) (Some 2%N)
         [{| ms_time := 400; ms_weight := Some P |}] 2 (Some (P / 10)) 150 300).
Definition ex_allow : op := OTx (MAddAllowed 0 0 (AGood false 2) (Some 100)).
Definition ex_bid : op := OTx (MPlaceBid (AGood false 2) 0 1 (Some P) (coin 2 50)).

Definition ex_s : state := run ex_init [ex_create_fixed; ex_create_batch; ex_allow; ex_bid].
(* evaluated once (ExampleRuns.v) *)
Definition ex_s_nf : state := Eval vm_compute in ex_s.
Lemma ex_s_eq : ex_s = ex_s_nf.
Proof. vm_compute. reflexivity. Qed.

Lemma ex_init_ok : ids_ok ex_init /\ bounded ex_init.
Proof. split; [apply ids_ok_empty|apply bounded_empty]; reflexivity. Qed.

Lemma ex_ops_no_genesis : Forall (fun o => o <> OGenesis) [ex_create_fixed; ex_create_batch; ex_allow; ex_bid].
Proof. repeat constructor; discriminate. Qed.

Lemma ex_ids_ok : ids_ok ex_s.
Proof. apply run_ids_ok_bounded; [exact ex_ops_no_genesis|apply ex_init_ok|apply ex_init_ok]. Qed.
Lemma ex_bounded : bounded ex_s.
Proof. apply run_ids_ok_bounded; [exact ex_ops_no_genesis|apply ex_init_ok|apply ex_init_ok]. Qed.
Lemma ex_bid_keys_unique : bid_keys_unique ex_s.
Proof. unfold bid_keys_unique. rewrite ex_s_eq. vm_compute. repeat constructor. intros []. Qed.

(* the same history continued: auction 1 opened by a block at t = 160 *)
Definition ex_s2 : state := snd (step ex_s (OBlock 160 [])).
Definition ex_s2_nf : state := Eval vm_compute in snd (step ex_s_nf (OBlock 160 [])).
Lemma ex_s2_eq : ex_s2 = ex_s2_nf.
Proof. unfold ex_s2. rewrite ex_s_eq. vm_compute. reflexivity. Qed.
Lemma ex_ids_ok2 : ids_ok ex_s2.
Proof. apply ids_ok_step; [exact ex_ids_ok|discriminate]. Qed.

(* The hypotheses of the matching theorems (book_wf, and what Match.valid_order checks of a sweep order; the one about
   payments only, denoms_wf, is in MatchConseq, the boolean forms of both in MatchWf), the map of
   caps (Match.caps_of) against Spec.cap_of, the assignment of the sweep at a price against Spec.demand_of (asg_facts:
   what the later files read of it), and one probe of the search: match_at against Spec.demand_of / total_demand,
   whatever the sweep order; total_demand is antitone in the price. *)
From Coq Require Import ZArith NArith List Bool Arith Lia Permutation Sorting.
From FR Require Import Dec Types Match Spec.
From FR.Proofs Require Import ListFacts DecFacts MatchBase MatchSweep.
Import ListNotations.
Open Scope Z_scope.
Opaque P.

(* bs: the bids of an auction in store order, al: its allow-list.  Pairwise distinct bid ids are not assumed: they
   follow from valid_order (valid_order_ids_nodup). *)
Record book_wf (bs : list bid) (al : list allowed) : Prop := {
  wf_price : forall b, In b bs -> 0 < b_price b;
  wf_amt : forall b, In b bs -> 0 < b_amt b;
  wf_allowed : forall b, In b bs -> exists x, In x al /\ al_bidder x = b_bidder b;
  wf_al_nodup : NoDup (map al_bidder al);
  wf_al_pos : forall x, In x al -> 0 < al_max x
}.

Lemma pick_bids_spec bs ids : forall l,
  pick_bids bs ids = Some l -> map b_id l = ids /\ incl l bs.
Proof.
  induction ids as [|i ids IH]; intros l H; cbn [pick_bids] in H.
  - inversion H; subst. split; [reflexivity|]. intros x [].
  - destruct (find (fun b => N.eqb (b_id b) i) bs) as [b|] eqn:F; [|discriminate].
    destruct (pick_bids bs ids) as [l'|] eqn:Pk; [|discriminate].
    inversion H; subst. destruct (IH l' eq_refl) as [E I].
    apply find_some in F. destruct F as [Hb Hi]. apply N.eqb_eq in Hi.
    split; [cbn [map]; rewrite E, Hi; reflexivity|].
    intros x [<-|Hx]; [exact Hb|apply I; exact Hx].
Qed.

Lemma nodupN_iff l : nodupN l = true <-> NoDup l.
Proof.
  induction l as [|x l IH]; cbn [nodupN]; [split; [constructor|reflexivity]|].
  rewrite andb_true_iff, IH, negb_true_iff, <- not_true_iff_false, existsb_exists. split.
  - intros [H1 H2]. constructor; [|exact H2].
    intros Hin. apply H1. exists x. split; [exact Hin|apply N.eqb_refl].
  - intros H. inversion H as [|? ? Hn Hr]; subst. split; [|exact Hr].
    intros (y & Hy & E). apply N.eqb_eq in E. subst y. contradiction.
Qed.

Lemma valid_order_inv bs ids order :
  valid_order bs ids = Some order ->
  length ids = length bs /\ NoDup ids /\ pick_bids bs ids = Some order /\
  prices_desc order = true /\ ties_by_id order = true.
Proof.
  unfold valid_order. intros H.
  destruct (Nat.eqb (length ids) (length bs) && nodupN ids) eqn:C; [|discriminate].
  apply andb_prop in C. destruct C as [C1 C2].
  destruct (pick_bids bs ids) as [l|]; [|discriminate].
  destruct (prices_desc l && ties_by_id l) eqn:D; [|discriminate]. apply andb_prop in D. inversion H; subst l.
  split; [apply Nat.eqb_eq; exact C1|]. split; [apply nodupN_iff; exact C2|]. split; [reflexivity|exact D].
Qed.

Lemma valid_order_spec bs ids order :
  valid_order bs ids = Some order ->
  Permutation order bs /\ prices_desc order = true /\ map b_id order = ids /\ NoDup ids.
Proof.
  intros H. destruct (valid_order_inv bs ids order H) as (C1 & C2 & Pk & D & _).
  destruct (pick_bids_spec bs ids order Pk) as [E I].
  split; [|split; [exact D|split; [exact E|exact C2]]].
  apply NoDup_Permutation_bis.
  - apply (NoDup_map_inv b_id). rewrite E. exact C2.
  - rewrite <- (map_length b_id order), E, C1. apply le_n.
  - exact I.
Qed.

Lemma valid_order_perm bs ids order : valid_order bs ids = Some order -> Permutation order bs.
Proof. intros H. apply (valid_order_spec bs ids order H). Qed.

Lemma valid_order_ids bs ids order : valid_order bs ids = Some order -> map b_id order = ids.
Proof. intros H. apply (valid_order_spec bs ids order H). Qed.

Lemma valid_order_sorted bs ids order :
  valid_order bs ids = Some order -> prices_desc order = true /\ ties_by_id order = true.
Proof. intros H. apply (valid_order_inv bs ids order H). Qed.

Lemma valid_order_ids_nodup bs ids order :
  valid_order bs ids = Some order -> NoDup (map b_id bs) /\ NoDup (map b_id order).
Proof.
  intros H. destruct (valid_order_spec bs ids order H) as (Pm & _ & E & ND).
  split; [|rewrite E; exact ND].
  apply (Permutation_NoDup (l := map b_id order)); [apply Permutation_map; exact Pm|rewrite E; exact ND].
Qed.

(* caps_of (Go map built front to back) against cap_of (first entry):
   keys are distinct, so the entry found from the back is the one found from the front *)
Lemma caps_of_cap_of al u :
  NoDup (map al_bidder al) -> (exists x, In x al /\ al_bidder x = u) ->
  caps_of al u = Some (cap_of al u).
Proof.
  intros ND (x & Hx & <-). unfold caps_of, cap_of.
  rewrite (find_key al_bidder al x ND Hx), (find_key al_bidder (rev al) x); [reflexivity| |].
  - rewrite map_rev. apply NoDup_rev. exact ND.
  - apply in_rev in Hx. exact Hx.
Qed.

Lemma cap_of_nonneg al u : (forall x, In x al -> 0 < al_max x) -> 0 <= cap_of al u.
Proof.
  intros H. unfold cap_of. destruct (find (fun x => N.eqb (al_bidder x) u) al) as [y|] eqn:F; [|lia].
  apply find_some in F. destruct F as [Hy _]. specialize (H y Hy). lia.
Qed.

Lemma wf_amt_nonneg bs al : book_wf bs al -> forall b, In b bs -> 0 <= b_amt b.
Proof. intros WF b Hb. pose proof (wf_amt _ _ WF b Hb). lia. Qed.

Lemma wf_cap_nonneg bs al : book_wf bs al -> forall u, 0 <= cap_of al u.
Proof. intros WF u. apply cap_of_nonneg, (wf_al_pos _ _ WF). Qed.

Lemma wf_price_in bs al p : book_wf bs al -> In p (map b_price bs) -> 0 < p.
Proof. intros WF Hp. apply in_map_iff in Hp. destruct Hp as (b & <- & Hb). apply (wf_price _ _ WF b Hb). Qed.

Lemma bid_qty_nonneg b p : 0 <= b_amt b -> 0 <= p -> 0 <= bid_qty_at b p.
Proof.
  intros Ha Hp. unfold bid_qty_at. destruct (b_type b); try exact Ha.
  destruct (Z.eq_dec p 0) as [->|NE]; [rewrite qty_of_worth_price0; lia|].
  apply qty_of_worth_nonneg; lia.
Qed.

Lemma bid_qty_antitone b p p' : 0 <= b_amt b -> 0 < p <= p' -> bid_qty_at b p' <= bid_qty_at b p.
Proof.
  intros Ha Hp. unfold bid_qty_at. destruct (b_type b); try lia.
  apply qty_of_worth_antitone; lia.
Qed.

Lemma demand_of_eq bs cap u p :
  demand_of bs cap u p = Z.min cap (asked p u (filter (fun b => p <=? b_price b) bs)).
Proof.
  unfold demand_of, asked. rewrite filter_filter. do 3 f_equal.
  apply filter_ext. intros b. apply andb_comm.
Qed.

Lemma demand_of_asked bs order cap u p :
  Permutation order bs ->
  Z.min cap (asked p u (filter (fun b => p <=? b_price b) order)) = demand_of bs cap u p.
Proof.
  intros Pm. rewrite demand_of_eq. f_equal.
  apply keyed_sum_perm, filter_perm. exact Pm.
Qed.

Lemma demand_of_bounds bs cap u p :
  (forall b, In b bs -> 0 <= b_amt b) -> 0 < p -> 0 <= cap ->
  0 <= demand_of bs cap u p <= cap.
Proof.
  intros Ha Hp Hc. rewrite demand_of_eq.
  assert (0 <= asked p u (filter (fun b => p <=? b_price b) bs)); [|lia].
  apply asked_nonneg. intros b Hb. apply filter_In in Hb. apply bid_qty_nonneg; [apply Ha, Hb|lia].
Qed.

Lemma total_demand_nonneg bs al p :
  (forall b, In b bs -> 0 <= b_amt b) -> (forall x, In x al -> 0 < al_max x) -> 0 < p ->
  0 <= total_demand bs al p.
Proof.
  intros Ha Hal Hp. unfold total_demand. apply sumZ_map_nonneg. intros u _.
  apply demand_of_bounds; [exact Ha|exact Hp|apply cap_of_nonneg; exact Hal].
Qed.

Lemma priced_above_facts bs al ids order p b :
  book_wf bs al -> valid_order bs ids = Some order -> 0 < p ->
  In b (filter (fun b => p <=? b_price b) order) -> In b bs /\ p <= b_price b /\ 0 <= bid_qty_at b p.
Proof.
  intros WF VO Hp Hb. pose proof (valid_order_perm bs ids order VO) as Pm.
  apply filter_In in Hb. destruct Hb as [Hb Hle]. apply Z.leb_le in Hle. apply (Permutation_in _ Pm) in Hb.
  split; [exact Hb|]. split; [exact Hle|]. apply bid_qty_nonneg; [apply (wf_amt_nonneg _ _ WF), Hb|lia].
Qed.

(* what is used of the assignment asg of the sweep at price p, in the sweep order `order` of the book bs; the
   assignment itself is named MatchBatch.batch_asg, and the later files read MatchBatch.batch_asg_facts *)
Set Implicit Arguments.
Record asg_facts (bs : list bid) (al : list allowed) (order : list bid) (p : Z) (asg : list (bid * Z)) : Prop := {
  af_fst : map fst asg = filter (fun b => p <=? b_price b) order;
  af_in : forall x, In x asg -> In (fst x) bs /\ p <= b_price (fst x) /\ 0 <= snd x <= bid_qty_at (fst x) p;
  af_got : forall u, got u asg = demand_of bs (cap_of al u) u p;
  af_total : sumZ (map snd asg) = total_demand bs al p;
  af_none : matched_ids asg = [] <-> total_demand bs al p = 0
}.
Unset Implicit Arguments.

Lemma asg_facts_hold bs al ids order p :
  book_wf bs al -> valid_order bs ids = Some order -> 0 < p ->
  asg_facts bs al order p (assign p (filter (fun b => p <=? b_price b) order) (cap_of al)).
Proof.
  intros WF VO Hp. pose proof (valid_order_perm bs ids order VO) as Pm.
  pose proof (fun b => priced_above_facts bs al ids order p b WF VO Hp) as Hl.
  set (l := filter (fun b => p <=? b_price b) order) in *.
  assert (Hq : forall b, In b l -> 0 <= bid_qty_at b p) by (intros b Hb; apply (Hl b Hb)).
  destruct (assign_spec p l (cap_of al) Hq (wf_cap_nonneg _ _ WF)) as [Hbd Hgot].
  assert (Htot : sumZ (map snd (assign p l (cap_of al))) = total_demand bs al p).
  { rewrite (assign_total p l (cap_of al) (bidders_of bs) (bidders_of_nodup bs)); [|intros b Hb|exact Hq|apply (wf_cap_nonneg _ _ WF)].
    - apply sumZ_map_ext. intros u _. apply demand_of_asked. exact Pm.
    - apply bidders_of_in. exists b. split; [apply (Hl b Hb)|reflexivity]. }
  constructor.
  - apply assign_fst.
  - intros x Hx. assert (Hf : In (fst x) l) by (rewrite <- (assign_fst p l (cap_of al)); apply in_map; exact Hx).
    destruct (Hl _ Hf) as (H1 & H2 & _). split; [exact H1|]. split; [exact H2|apply Hbd; exact Hx].
  - intros u. rewrite Hgot. apply demand_of_asked. exact Pm.
  - exact Htot.
  - rewrite <- Htot. apply matched_ids_nil_iff. intros x Hx. apply (Hbd x Hx).
Qed.

Definition probe_post (bs : list bid) (al : list allowed) (order : list bid) (p supply : Z) (out : sweep_out) : Prop :=
  let asg := assign p (filter (fun b => p <=? b_price b) order) (cap_of al) in
  match out with
  | SPanic => False
  | SExceed => supply < total_demand bs al p
  | SFit r =>
      total_demand bs al p <= supply /\ mr_total r = total_demand bs al p /\
      mr_matched r = matched_ids asg /\
      (mr_matched r = [] <-> total_demand bs al p = 0) /\
      (forall u, getb (mr_bidders r) u = (demand_of bs (cap_of al u) u p, paid_in p u asg))
  end.

Theorem match_at_spec bs al ids order p supply :
  book_wf bs al -> valid_order bs ids = Some order -> 0 < p -> 0 <= supply ->
  probe_post bs al order p supply (match_at p supply order al).
Proof.
  intros WF VO Hp Hs. pose proof (asg_facts_hold bs al ids order p WF VO Hp) as F.
  pose proof (fun b => priced_above_facts bs al ids order p b WF VO Hp) as Hl.
  assert (Hcaps : forall b, In b (filter (fun b => p <=? b_price b) order) ->
                             caps_of al (b_bidder b) = Some (cap_of al (b_bidder b))).
  { intros b Hb. apply caps_of_cap_of; [apply (wf_al_nodup _ _ WF)|]. apply (wf_allowed _ _ WF b), (Hl b Hb). }
  pose proof (sweep_assign p supply _ (caps_of al) (cap_of al) 0 [] []
                (fun b Hb => proj2 (proj2 (Hl b Hb))) Hcaps (wf_cap_nonneg _ _ WF) Hs) as H.
  unfold probe_post, match_at. rewrite (af_total F) in H.
  destruct (sweep p supply _ (caps_of al) 0 [] []) as [r| |]; [|lia|exact H].
  destruct H as (E1 & E2 & E3 & E4). cbn [app] in E3.
  split; [lia|]. split; [lia|]. split; [exact E3|]. split; [rewrite E3; exact (af_none F)|].
  intros u. rewrite E4, getb_nil, (af_got F). reflexivity.
Qed.

Lemma demand_of_antitone bs cap u p p' :
  (forall b, In b bs -> 0 <= b_amt b) -> 0 < p <= p' ->
  demand_of bs cap u p' <= demand_of bs cap u p.
Proof.
  intros Ha Hp. unfold demand_of. apply Z.min_le_compat_l.
  induction bs as [|b bs IH]; cbn [filter map]; [lia|].
  assert (Hb : 0 <= b_amt b) by (apply Ha; left; reflexivity).
  specialize (IH (fun b' Hb' => Ha b' (or_intror Hb'))).
  pose proof (bid_qty_antitone b p p' Hb Hp). pose proof (bid_qty_nonneg b p Hb ltac:(lia)).
  destruct (N.eqb (b_bidder b) u); cbn [andb]; [|exact IH].
  destruct (Z.leb_spec p' (b_price b)); destruct (Z.leb_spec p (b_price b)); cbn [map];
    rewrite ?sumZ_cons; lia.
Qed.

Theorem total_demand_antitone bs al p p' :
  (forall b, In b bs -> 0 <= b_amt b) -> 0 < p <= p' ->
  total_demand bs al p' <= total_demand bs al p.
Proof.
  intros Ha Hp. unfold total_demand. apply sumZ_map_le. intros u _.
  apply demand_of_antitone; assumption.
Qed.

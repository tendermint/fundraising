(* The result monad of the model: inversion of bind; and yields, the exact form of a computation (when it succeeds, and
   with which value), composed along the program text. *)
From FR Require Import Types.

Lemma bind_ok_inv : forall {A B} (r : res A) (f : A -> res B) b,
  bind r f = Ok b -> exists a, r = Ok a /\ f a = Ok b.
Proof. intros A B [a|c tr] f b H; [exists a; split; [reflexivity|exact H] | discriminate H]. Qed.

(* r succeeds exactly when P holds, and then with the value v.  v is a term, not an existential: a characterisation
   `yields (h s args) G (post s args)` of a handler is obtained by applying the lemmas below in the order of the program
   text, and it serves as inversion (left to right) and as liveness (right to left) alike. *)
Definition yields {A} (r : res A) (P : Prop) (v : A) : Prop := forall x, r = Ok x <-> P /\ x = v.

Lemma yields_ok {A} (v : A) : yields (Ok v) True v.
Proof. intros x. split; [intros H; injection H as <-; auto|intros [_ ->]; reflexivity]. Qed.

Lemma yields_err {A} c tr (v : A) : yields (Err c tr) False v.
Proof. intros x. split; [discriminate|intros [[] _]]. Qed.

(* the condition and the value may be restated; the value only where the computation succeeds *)
Lemma yields_conv {A} (r : res A) P P' v v' : yields r P v -> (P <-> P') -> (P -> v = v') -> yields r P' v'.
Proof.
  intros H E Hv x. rewrite <- E, (H x). split; intros [HP ->]; (split; [exact HP|]); [|symmetry]; exact (Hv HP).
Qed.

Lemma yields_bind {A B} (r : res A) (k : A -> res B) P Q v w :
  yields r P v -> yields (k v) Q w -> yields (bind r k) (P /\ Q) w.
Proof.
  intros Hr Hk x. split.
  - intros H. apply bind_ok_inv in H. destruct H as (a & Ha & Hx).
    apply Hr in Ha. destruct Ha as [HP ->]. apply Hk in Hx. tauto.
  - intros [[HP HQ] ->]. rewrite (proj2 (Hr v) (conj HP eq_refl)). cbn [bind]. apply Hk. auto.
Qed.

(* the guards of a handler: `if b then fail .. else`, `if negb b then fail .. else`, a lookup that must succeed *)
Lemma yields_if {A} (b : bool) c tr (r : res A) P v :
  yields r P v -> yields (if b then Err c tr else r) (b = false /\ P) v.
Proof.
  intros H x. destruct b; [|rewrite (H x); tauto].
  split; [discriminate|intros [[E _] _]; discriminate E].
Qed.
Lemma yields_ifn {A} (b : bool) c tr (r : res A) P v :
  yields r P v -> yields (if negb b then Err c tr else r) (b = true /\ P) v.
Proof.
  intros H x. destruct b; cbn [negb]; [rewrite (H x); tauto|].
  split; [discriminate|intros [[E _] _]; discriminate E].
Qed.
Lemma yields_some {A B} (o : option B) c tr (r : res A) P v :
  yields r P v -> yields (match o with None => Err c tr | Some _ => r end) (o <> None /\ P) v.
Proof.
  intros H x. destruct o; [rewrite (H x); intuition congruence|].
  split; [discriminate|intros [[E _] _]; destruct (E eq_refl)].
Qed.

(* read as liveness alone (PrecondBase.is_ok r is the left-hand side) *)
Lemma yields_is_ok {A} (r : res A) P v : yields r P v -> ((exists x, r = Ok x) <-> P).
Proof.
  intros H. split; [intros [x Hx]; apply (H x), Hx|intros HP; exists v; apply H; auto].
Qed.

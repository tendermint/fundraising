(* GENESIS for the lifecycle theorems (it comes after LifeTheorems and is not a base of the other Genesis files): under
   gen_ok, the auction ids being exactly 0 .. st_aseq - 1 in order, export / import gives back the same auction records
   and counter (genesis_auctions); every operation, GENESIS included, keeps gen_ok (gen_ok_step); step_astep is
   LifeTheorems.step_auction with GENESIS added. *)
From Coq Require Import ZArith NArith List.
From FR Require Import Types Step Genesis Model Spec.
From FR.Proofs Require Import FrameFacts LifeTheorems.
From FR.Proofs Require TxFacts InvStaticBase GenesisRT GenesisImport ImportShape.
Import ListNotations.
Open Scope Z_scope.

(* the part inv_ids of the invariant under the name the property files use: gen_ok is InvDefs.ids_seq word for word, so
   every lemma about ids_seq applies as it is (InvStaticBase.ids_seq_ids_ok: gen_ok s -> ids_ok s) *)
Definition gen_ok (s : state) : Prop := map a_id (st_auctions s) = ids_upto (st_aseq s).

Lemma import_auctions_gen s s' :
  gen_ok s -> import s (export s) = Some s' -> st_auctions s' = st_auctions s /\ st_aseq s' = st_aseq s.
Proof.
  intros G H. rewrite (ImportShape.import_inv _ _ _ H). cbn [ImportShape.imported st_auctions st_aseq export g_auctions].
  rewrite (GenesisImport.import_auctions_seq _ 0 (N.to_nat (st_aseq s))), N2Nat.id; [split; reflexivity|].
  rewrite <- GenesisRT.ids_upto_seqN. exact G.
Qed.

Lemma genesis_auctions s :
  gen_ok s -> st_auctions (snd (step s OGenesis)) = st_auctions s /\ st_aseq (snd (step s OGenesis)) = st_aseq s.
Proof.
  intros G. cbn [step]. unfold genesis_roundtrip. cbv zeta.
  destruct (import s (export s)) as [s'|] eqn:E; cbn [snd]; [|split; reflexivity].
  apply import_auctions_gen; assumption.
Qed.

Lemma gen_ok_step s o : gen_ok s -> gen_ok (snd (step s o)).
Proof.
  intros G. unfold gen_ok. destruct (op_eq_genesis_dec o) as [->|Hg].
  - destruct (genesis_auctions s G) as [-> ->]. exact G.
  - destruct (step_ids s o (InvStaticBase.ids_seq_ids_ok s G) Hg) as [(a & C)|[-> ->]]; [|exact G].
    rewrite (TxFacts.cr_auctions C), (TxFacts.cr_aseq C), map_app, G, InvStaticBase.ids_upto_succ. cbn [map].
    rewrite (TxFacts.cr_id C). reflexivity.
Qed.

Lemma genesis_find s id : gen_ok s -> find_auction (snd (step s OGenesis)) id = find_auction s id.
Proof. intros G. apply find_auction_conv. apply genesis_auctions. exact G. Qed.

(* every operation under gen_ok, every operation but GENESIS under ids_ok: the two forms the theorems take *)
Lemma step_astep s o id a :
  gen_ok s \/ (ids_ok s /\ o <> OGenesis) -> find_auction s id = Some a ->
  exists a', find_auction (snd (step s o)) id = Some a' /\ astep s o a a'.
Proof.
  intros H F. destruct (op_eq_genesis_dec o) as [->|Hg].
  - destruct H as [G|[_ []]]; [|reflexivity]. exists a. split; [rewrite genesis_find; assumption|].
    apply AsQuiet. left. reflexivity.
  - apply step_auction; [destruct H as [G|[OK _]]; [apply InvStaticBase.ids_seq_ids_ok|]; assumption|exact Hg|exact F].
Qed.

Lemma gen_ok_empty s : st_auctions s = [] -> st_aseq s = 0%N -> gen_ok s.
Proof. unfold gen_ok. intros -> ->. reflexivity. Qed.

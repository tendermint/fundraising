(* Facts about find, filter, NoDup, sorted lists and their permutations, flat_map, forallb, Forall2, hd, firstn and
   sumZ over arbitrary lists; of the model only Match.sumZ is mentioned. *)
From Coq Require Import ZArith NArith List Bool Lia Permutation Sorted RelationClasses.
From FR Require Import Match.
Import ListNotations.
Open Scope Z_scope.

Lemma find_app {A} (p : A -> bool) l1 l2 :
  find p (l1 ++ l2) = match find p l1 with Some x => Some x | None => find p l2 end.
Proof. induction l1 as [|x l1 IH]; cbn [app find]; [reflexivity|]. destruct (p x); [reflexivity|exact IH]. Qed.

Lemma find_app_single {A} (p : A -> bool) l a :
  find p (l ++ [a]) = match find p l with Some x => Some x | None => if p a then Some a else None end.
Proof. exact (find_app p l [a]). Qed.

Lemma find_ext {A} (p q : A -> bool) l : (forall x, In x l -> p x = q x) -> find p l = find q l.
Proof.
  induction l as [|x l IH]; intros H; cbn [find]; [reflexivity|].
  rewrite (H x (or_introl eq_refl)), IH; [reflexivity|]. intros y Hy. apply H. right. exact Hy.
Qed.

Lemma find_unique {A} (p : A -> bool) l x :
  In x l -> p x = true -> (forall y, In y l -> p y = true -> y = x) -> find p l = Some x.
Proof.
  induction l as [|z l IH]; cbn [find In]; intros Hx Px U; [contradiction|]. destruct (p z) eqn:E.
  - rewrite (U z (or_introl eq_refl) E). reflexivity.
  - destruct Hx as [->|Hx]; [congruence|]. apply IH; [exact Hx|exact Px|]. intros y Hy. apply U. right. exact Hy.
Qed.

Lemma NoDup_map_inj {A B} (f : A -> B) l x y :
  NoDup (map f l) -> In x l -> In y l -> f x = f y -> x = y.
Proof.
  induction l as [|z l IH]; cbn [map In]; intros ND Hx Hy E; [contradiction|].
  inversion ND as [|? ? Hn ND']; subst. destruct Hx as [->|Hx], Hy as [->|Hy].
  - reflexivity.
  - exfalso. apply Hn. rewrite E. apply in_map. exact Hy.
  - exfalso. apply Hn. rewrite <- E. apply in_map. exact Hx.
  - apply IH; assumption.
Qed.

Lemma find_key {A} (k : A -> N) l x :
  NoDup (map k l) -> In x l -> find (fun y => N.eqb (k y) (k x)) l = Some x.
Proof.
  intros ND Hx. apply find_unique; [exact Hx|apply N.eqb_refl|].
  intros y Hy E. apply N.eqb_eq in E. exact (NoDup_map_inj k l y x ND Hy Hx E).
Qed.

Lemma find_none_key {A} (k : A -> N) l j : ~ In j (map k l) -> find (fun y => N.eqb (k y) j) l = None.
Proof.
  intros H. destruct (find _ l) as [y|] eqn:F; [|reflexivity]. apply find_some in F. destruct F as [Hy E].
  apply N.eqb_eq in E. subst j. exfalso. apply H. apply in_map. exact Hy.
Qed.

Lemma find_replace_same {A} (p : A -> bool) (e : A) l :
  p e = true ->
  find p (map (fun x => if p x then e else x) l) = match find p l with Some _ => Some e | None => None end.
Proof.
  intros He. induction l as [|x l IH]; cbn [map find]; [reflexivity|].
  destruct (p x) eqn:E; [rewrite He; reflexivity|rewrite E; exact IH].
Qed.

Lemma find_replace_other {A} (p q : A -> bool) (e : A) l :
  q e = false -> (forall x, p x = true -> q x = false) ->
  find q (map (fun x => if p x then e else x) l) = find q l.
Proof.
  intros He D. induction l as [|x l IH]; cbn [map find]; [reflexivity|].
  destruct (p x) eqn:E; [rewrite He, (D x E); exact IH|]. destruct (q x); [reflexivity|exact IH].
Qed.

Lemma find_map_keep {A} (f : A -> bool) (g : A -> A) l :
  (forall x, f (g x) = f x) -> find f (map g l) = option_map g (find f l).
Proof.
  intros H. induction l as [|x l IH]; cbn [map find]; [reflexivity|]. rewrite H.
  destruct (f x); [reflexivity|exact IH].
Qed.

Lemma find_filter_and {A} (p q : A -> bool) (l : list A) :
  find (fun x => p x && q x) l = find q (filter p l).
Proof.
  induction l as [|x r IH]; [reflexivity|].
  cbn [find filter]. destruct (p x) eqn:Ep; cbn [andb find].
  - destruct (q x); [reflexivity|exact IH].
  - exact IH.
Qed.

Lemma find_perm_unique {A} (p : A -> bool) (l l' : list A) :
  (forall x y, In x l -> In y l -> p x = true -> p y = true -> x = y) ->
  Permutation l l' -> find p l' = find p l.
Proof.
  intros Hu Hp.
  destruct (find p l) as [x|] eqn:E; destruct (find p l') as [y|] eqn:E'; try reflexivity.
  - apply find_some in E. apply find_some in E'. destruct E as [Hx Hpx]. destruct E' as [Hy Hpy].
    f_equal. apply Hu; try assumption. eapply Permutation_in; [apply Permutation_sym; exact Hp|exact Hy].
  - apply find_some in E. destruct E as [Hx Hpx].
    pose proof (find_none _ _ E' x (Permutation_in _ Hp Hx)) as Hn. congruence.
  - apply find_some in E'. destruct E' as [Hy Hpy].
    pose proof (find_none _ _ E y (Permutation_in _ (Permutation_sym Hp) Hy)) as Hn. congruence.
Qed.

(* filter after map, three ways: _swap tests before mapping; _comm for a g that does not change the test; _keep for a g
   that leaves alone what passes and lets nothing new pass *)
Lemma filter_map_swap {A B} (f : B -> bool) (g : A -> B) l :
  filter f (map g l) = map g (filter (fun x => f (g x)) l).
Proof.
  induction l as [|x l IH]; cbn [map filter]; [reflexivity|].
  destruct (f (g x)); cbn [map]; rewrite IH; reflexivity.
Qed.

Lemma filter_map_comm {A} (f : A -> bool) (g : A -> A) l :
  (forall x, f (g x) = f x) -> filter f (map g l) = map g (filter f l).
Proof. intros H. rewrite filter_map_swap. f_equal. apply filter_ext. exact H. Qed.

Lemma filter_map_keep {A} (f : A -> bool) (g : A -> A) l :
  (forall x, f x = true -> g x = x) -> (forall x, f x = false -> f (g x) = false) ->
  filter f (map g l) = filter f l.
Proof.
  intros H1 H2. induction l as [|x l IH]; cbn [map filter]; [reflexivity|]. destruct (f x) eqn:E.
  - rewrite (H1 x E), E, IH. reflexivity.
  - rewrite (H2 x E), IH. reflexivity.
Qed.

Lemma filter_all_true {A} (f : A -> bool) l : (forall x, In x l -> f x = true) -> filter f l = l.
Proof.
  induction l as [|x l IH]; intros H; cbn [filter]; [reflexivity|].
  rewrite (H x (or_introl eq_refl)), IH; [reflexivity|]. intros y Hy. apply H. right. exact Hy.
Qed.

Lemma filter_nil_iff {A} (f : A -> bool) l : filter f l = [] <-> forall x, In x l -> f x = false.
Proof.
  split.
  - intros H x Hx. destruct (f x) eqn:E; [|reflexivity].
    assert (Hin : In x (filter f l)) by (apply filter_In; split; assumption). rewrite H in Hin. destruct Hin.
  - induction l as [|x l IH]; intros H; cbn [filter]; [reflexivity|].
    rewrite (H x (or_introl eq_refl)). apply IH. intros y Hy. apply H. right. exact Hy.
Qed.

Lemma filter_app_none {A} (f : A -> bool) l e :
  (forall x, In x e -> f x = false) -> filter f (l ++ e) = filter f l.
Proof. intros H. apply filter_nil_iff in H. rewrite filter_app, H. apply app_nil_r. Qed.

Lemma filter_filter {A} (f g : A -> bool) l : filter f (filter g l) = filter (fun x => g x && f x) l.
Proof.
  induction l as [|x l IH]; cbn [filter]; [reflexivity|].
  destruct (g x); cbn [filter andb]; [destruct (f x)|]; rewrite IH; reflexivity.
Qed.

Lemma filter_comm {A} (f g : A -> bool) l : filter f (filter g l) = filter g (filter f l).
Proof. rewrite !filter_filter. apply filter_ext. intros x. apply andb_comm. Qed.

Lemma filter_perm {A} (f : A -> bool) l l' : Permutation l l' -> Permutation (filter f l) (filter f l').
Proof.
  induction 1 as [|x l l' _ IH|x y l|l l' l'' _ IH1 _ IH2]; cbn [filter].
  - constructor.
  - destruct (f x); [constructor|]; exact IH.
  - destruct (f x), (f y); try apply Permutation_refl. apply perm_swap.
  - eapply Permutation_trans; eassumption.
Qed.

Lemma existsb_eqb_in (i : N) m : existsb (N.eqb i) m = true <-> In i m.
Proof.
  rewrite existsb_exists. split.
  - intros (x & Hx & E). apply N.eqb_eq in E. subst. exact Hx.
  - intros H. exists i. split; [exact H|apply N.eqb_refl].
Qed.

Lemma NoDup_map_filter {A B} (f : A -> B) (g : A -> bool) l :
  NoDup (map f l) -> NoDup (map f (filter g l)).
Proof.
  induction l as [|x l IH]; cbn [map filter]; intros ND; [constructor|].
  inversion ND as [|? ? Hn ND']; subst. destruct (g x); [|exact (IH ND')].
  cbn [map]. constructor; [|exact (IH ND')].
  intros Hin. apply Hn. apply in_map_iff in Hin. destruct Hin as (y & Ey & Hy).
  apply filter_In in Hy. rewrite <- Ey. apply in_map. apply Hy.
Qed.

Lemma count_mem {A} (k : A -> N) (l : list A) (m : list N) :
  NoDup (map k l) -> NoDup m -> incl m (map k l) ->
  length (filter (fun x => existsb (N.eqb (k x)) m) l) = length m.
Proof.
  intros Nl Nm Hm. rewrite <- (map_length k), <- (filter_map_swap (fun i => existsb (N.eqb i) m) k).
  apply Permutation_length. apply NoDup_Permutation.
  - apply NoDup_filter. exact Nl.
  - exact Nm.
  - intros x. rewrite filter_In, existsb_exists. split.
    + intros (_ & y & Hy & E). apply N.eqb_eq in E. subst y. exact Hy.
    + intros Hx. split; [apply Hm; exact Hx|]. exists x. split; [exact Hx|apply N.eqb_refl].
Qed.

Lemma NoDup_app_intro {A} (l1 l2 : list A) :
  NoDup l1 -> NoDup l2 -> (forall x, In x l1 -> In x l2 -> False) -> NoDup (l1 ++ l2).
Proof.
  induction l1 as [|x l1 IH]; cbn [app]; intros N1 N2 D; [exact N2|].
  inversion N1 as [|? ? Hn N1']; subst. constructor.
  - intros H. apply in_app_or in H. destruct H as [H|H]; [contradiction|exact (D x (or_introl eq_refl) H)].
  - apply IH; [exact N1'|exact N2|]. intros y Hy. apply D. right. exact Hy.
Qed.

Lemma NoDup_app_parts {A} (l1 l2 : list A) :
  NoDup (l1 ++ l2) -> NoDup l1 /\ NoDup l2 /\ forall x, In x l1 -> In x l2 -> False.
Proof.
  induction l1 as [|y l1 IH]; cbn [app]; intros ND.
  - split; [constructor|]. split; [exact ND|intros x []].
  - inversion ND as [|? ? Hn ND']; subst. destruct (IH ND') as (N1 & N2 & D). split; [|split].
    + constructor; [|exact N1]. intros C. apply Hn. apply in_or_app. left. exact C.
    + exact N2.
    + intros x [<-|Hx] Hx2; [apply Hn; apply in_or_app; right; exact Hx2|exact (D x Hx Hx2)].
Qed.

Lemma ssorted_nodup {A} (R : A -> A -> Prop) l : (forall x, ~ R x x) -> StronglySorted R l -> NoDup l.
Proof.
  intros Irr. induction 1 as [|v l HS IH HF]; constructor; [|exact IH].
  intros Hin. rewrite Forall_forall in HF. exact (Irr v (HF v Hin)).
Qed.

Lemma sorted_lt_nodup l : StronglySorted N.lt l -> NoDup l.
Proof. apply ssorted_nodup. exact N.lt_irrefl. Qed.

(* a sorted list is determined by its elements: for an R antisymmetric on them, and (ssorted_) for a strict order *)
Lemma sorted_perm_unique {A} (R : A -> A -> Prop) (l1 : list A) : forall l2,
  (forall x y, In x l1 -> In y l1 -> R x y -> R y x -> x = y) ->
  StronglySorted R l1 -> StronglySorted R l2 -> Permutation l1 l2 -> l1 = l2.
Proof.
  induction l1 as [|x r1 IH]; intros l2 Hanti H1 H2 Hp.
  - symmetry. apply Permutation_nil. exact Hp.
  - destruct l2 as [|y r2].
    + apply Permutation_sym in Hp. apply Permutation_nil in Hp. discriminate.
    + apply StronglySorted_inv in H1. destruct H1 as [Hr1 Hx].
      apply StronglySorted_inv in H2. destruct H2 as [Hr2 Hy].
      rewrite Forall_forall in Hx, Hy.
      assert (x = y) as Exy.
      { pose proof (Permutation_in x Hp (or_introl eq_refl)) as Hxin.
        pose proof (Permutation_in y (Permutation_sym Hp) (or_introl eq_refl)) as Hyin.
        destruct Hxin as [Hxin|Hxin]; [congruence|].
        destruct Hyin as [Hyin|Hyin]; [congruence|].
        apply Hanti; [left; reflexivity|right; exact Hyin|apply Hx; exact Hyin|apply Hy; exact Hxin]. }
      subst y. f_equal. apply Permutation_cons_inv in Hp.
      apply IH; try assumption.
      intros a b Ha Hb. apply Hanti; right; assumption.
Qed.

Lemma ssorted_perm_unique {A} (R : A -> A -> Prop) :
  (forall x, ~ R x x) -> Transitive R ->
  forall l l', StronglySorted R l -> StronglySorted R l' -> Permutation l l' -> l = l'.
Proof.
  intros Hirr Htr l l' S S' P. apply (sorted_perm_unique R l l'); try assumption.
  intros x y _ _ Hxy Hyx. destruct (Hirr x (Htr _ _ _ Hxy Hyx)).
Qed.

Lemma ssorted_of_map {A B} (f : A -> B) (R : B -> B -> Prop) (Q : A -> A -> Prop) (l : list A) :
  (forall x y, In x l -> In y l -> R (f x) (f y) -> Q x y) ->
  StronglySorted R (map f l) -> StronglySorted Q l.
Proof.
  induction l as [|x r IH]; intros HQ H; [constructor|].
  cbn [map] in H. apply StronglySorted_inv in H. destruct H as [Hr Hx].
  constructor.
  - apply IH; [|exact Hr]. intros y z Hy Hz. apply HQ; right; assumption.
  - rewrite Forall_forall in *. intros y Hy. apply HQ; [left; reflexivity|right; exact Hy|].
    apply Hx. apply in_map. exact Hy.
Qed.

Lemma sorted_gt_nth l : StronglySorted Z.gt l ->
  forall i j, (i < j < length l)%nat -> nth j l 0 < nth i l 0.
Proof.
  induction 1 as [|a l HS IH HF]; intros i j Hij; [cbn [length] in Hij; lia|].
  cbn [length] in Hij. destruct j as [|j]; [lia|]. cbn [nth]. destruct i as [|i].
  - rewrite Forall_forall in HF. apply Z.gt_lt, (HF (nth j l 0)), nth_In. lia.
  - apply IH. lia.
Qed.

Lemma NoDup_snoc {A} (l : list A) x : NoDup l -> ~ In x l -> NoDup (l ++ [x]).
Proof.
  intros ND Hx. apply NoDup_app_intro; [exact ND|constructor; [intros []|constructor]|].
  intros y Hy [<-|[]]. exact (Hx Hy).
Qed.

Lemma NoDup_app_before_neq {A K} (key : A -> K) l x r y :
  NoDup (map key (l ++ x :: r)) -> In y l -> key y <> key x.
Proof.
  intros Hnd Hy E. rewrite map_app in Hnd. cbn [map] in Hnd. apply NoDup_remove_2 in Hnd. apply Hnd.
  apply in_or_app. left. rewrite <- E. apply in_map. exact Hy.
Qed.

Lemma NoDup_pair_keys {A} (f g : A -> N) (l : list A) :
  (forall a, NoDup (map g (filter (fun x => N.eqb (f x) a) l))) ->
  NoDup (map (fun x => (f x, g x)) l).
Proof.
  induction l as [|x r IH]; intros H; [constructor|].
  cbn [map]. constructor.
  - intros Hin. apply in_map_iff in Hin. destruct Hin as [y [Ey Hy]].
    injection Ey as Ef Eg.
    specialize (H (f x)). cbn [filter] in H. rewrite N.eqb_refl in H. cbn [map] in H.
    apply NoDup_cons_iff in H. destruct H as [Hnotin _]. apply Hnotin.
    rewrite <- Eg. apply in_map. apply filter_In. split; [exact Hy|]. apply N.eqb_eq. exact Ef.
  - apply IH. intros a. specialize (H a). cbn [filter] in H.
    destruct (N.eqb (f x) a); [|exact H].
    cbn [map] in H. apply NoDup_cons_iff in H. apply H.
Qed.

Lemma in_flat_map_pairs {A B} (g : A -> option B) l a b :
  In (a, b) (flat_map (fun x => match g x with Some y => [(x, y)] | None => [] end) l) <-> In a l /\ g a = Some b.
Proof.
  rewrite in_flat_map. split.
  - intros (x & Hx & Hin). destruct (g x) as [y|] eqn:G; [|destruct Hin].
    destruct Hin as [E|[]]. injection E as <- <-. split; assumption.
  - intros [Ha G]. exists a. split; [exact Ha|]. rewrite G. left. reflexivity.
Qed.

Lemma forallb_impl {A} (f g : A -> bool) l :
  (forall x, In x l -> f x = true -> g x = true) -> forallb f l = true -> forallb g l = true.
Proof.
  intros H Hf. apply forallb_forall. intros x Hx.
  apply (H x Hx). rewrite forallb_forall in Hf. apply Hf, Hx.
Qed.

Lemma Forall_forallb {A} (f : A -> bool) (Q : A -> Prop) (l : list A) :
  (forall x, Q x -> f x = true) -> Forall Q l -> forallb f l = true.
Proof.
  intros HQ HF. apply forallb_forall. intros x Hx. rewrite Forall_forall in HF. apply HQ. apply HF. exact Hx.
Qed.

Lemma forallb_combine_map {A} (f : A -> A) (g : A * A -> bool) l :
  (forall v, In v l -> g (v, f v) = true) -> forallb g (combine l (map f l)) = true.
Proof.
  induction l as [|x l IH]; intros H; cbn [map combine forallb]; [reflexivity|].
  rewrite (H x (or_introl eq_refl)), IH; [reflexivity|]. intros v Hv. apply H. now right.
Qed.

Lemma map_const_false {A} (f : A -> bool) l : (forall x, In x l -> f x = false) -> map f l = repeat false (length l).
Proof.
  induction l as [|x l IH]; intros H; cbn [map length repeat]; [reflexivity|].
  rewrite (H x (or_introl eq_refl)), IH; [reflexivity|]. intros y Hy. apply H.
  right. exact Hy.
Qed.

Lemma hd_app_nonempty {A} (d : A) l e : l <> [] -> hd d (l ++ e) = hd d l.
Proof. destruct l; [congruence|reflexivity]. Qed.

Lemma firstn_len_app {A} (l : list A) x : firstn (length l) (l ++ x) = l.
Proof. rewrite firstn_app, Nat.sub_diag, firstn_all. cbn [firstn]. apply app_nil_r. Qed.

Lemma fold_min_spec r : forall p0,
  In (fold_left Z.min r p0) (p0 :: r) /\ forall x, In x (p0 :: r) -> fold_left Z.min r p0 <= x.
Proof.
  induction r as [|a r IH]; intros p0; cbn [fold_left].
  - split; [left; reflexivity|]. intros x [<-|[]]. lia.
  - destruct (IH (Z.min p0 a)) as [I L]. set (m := fold_left Z.min r (Z.min p0 a)) in *. clearbody m. split.
    + destruct I as [E|I]; [|right; right; exact I]. subst m.
      destruct (Z.min_spec p0 a) as [[_ E']|[_ E']]; rewrite E'; [left|right; left]; reflexivity.
    + intros x Hx. pose proof (L (Z.min p0 a) (or_introl eq_refl)) as L0.
      destruct Hx as [<-|[<-|Hx]]; [lia|lia|]. apply L. right. exact Hx.
Qed.

Lemma sumZ_nil : sumZ [] = 0.
Proof. reflexivity. Qed.

Lemma sumZ_cons x l : sumZ (x :: l) = x + sumZ l.
Proof. reflexivity. Qed.

Lemma sumZ_app l1 l2 : sumZ (l1 ++ l2) = sumZ l1 + sumZ l2.
Proof. induction l1 as [|x l1 IH]; cbn [app]; rewrite ?sumZ_cons, ?sumZ_nil; lia. Qed.

Lemma sumZ_map_snoc {A} (f : A -> Z) l b : sumZ (map f (l ++ [b])) = sumZ (map f l) + f b.
Proof. rewrite map_app, sumZ_app. cbn [map]. rewrite sumZ_cons. cbn. lia. Qed.

Lemma sumZ_perm l l' : Permutation l l' -> sumZ l = sumZ l'.
Proof. induction 1 as [|x l l' _ IH|x y l|l l' l'' _ IH1 _ IH2]; rewrite ?sumZ_cons; lia. Qed.

Lemma sumZ_map_le {A} (f g : A -> Z) l :
  (forall x, In x l -> f x <= g x) -> sumZ (map f l) <= sumZ (map g l).
Proof.
  induction l as [|x l IH]; intros H; cbn [map]; [lia|]. rewrite !sumZ_cons.
  pose proof (H x (or_introl eq_refl)). pose proof (IH (fun y Hy => H y (or_intror Hy))). lia.
Qed.

Lemma sumZ_map_ext {A} (f g : A -> Z) l :
  (forall x, In x l -> f x = g x) -> sumZ (map f l) = sumZ (map g l).
Proof. intros H. f_equal. apply map_ext_in. exact H. Qed.

Lemma sumZ_zeros {A} (l : list A) : sumZ (map (fun _ => 0) l) = 0.
Proof. induction l as [|x l IH]; cbn [map]; rewrite ?sumZ_cons, ?IH; reflexivity. Qed.

Lemma sumZ_map_nonneg {A} (f : A -> Z) l : (forall x, In x l -> 0 <= f x) -> 0 <= sumZ (map f l).
Proof. intros H. rewrite <- (sumZ_zeros l). apply sumZ_map_le. exact H. Qed.

Lemma sumZ_pos_iff {A} (f : A -> Z) l :
  (forall x, In x l -> 0 <= f x) -> (0 < sumZ (map f l) <-> exists x, In x l /\ 0 < f x).
Proof.
  induction l as [|a l IH]; intros H; cbn [map].
  - rewrite sumZ_nil. split; [lia|intros (x & [] & _)].
  - rewrite sumZ_cons. pose proof (H a (or_introl eq_refl)) as Ha.
    specialize (IH (fun x Hx => H x (or_intror Hx))).
    pose proof (sumZ_map_nonneg f l (fun x Hx => H x (or_intror Hx))) as Hs. split.
    + intros Hp. destruct (Z.ltb_spec 0 (f a)) as [Hfa|Hfa].
      * exists a. split; [left; reflexivity|exact Hfa].
      * assert (Hl : 0 < sumZ (map f l)) by lia. apply IH in Hl. destruct Hl as (x & Hx & Hfx).
        exists x. split; [right; exact Hx|exact Hfx].
    + intros (x & [<-|Hx] & Hfx); [lia|].
      assert (0 < sumZ (map f l)) by (apply IH; exists x; split; assumption). lia.
Qed.

Lemma sumZ_nonneg l : (forall x, In x l -> 0 <= x) -> 0 <= sumZ l.
Proof. intros H. rewrite <- (map_id l). apply sumZ_map_nonneg. exact H. Qed.

Lemma sumZ_map_zero {A} (f : A -> Z) l :
  (forall x, In x l -> 0 <= f x) -> sumZ (map f l) = 0 -> forall x, In x l -> f x = 0.
Proof.
  induction l as [|a l IH]; intros H E x Hx; [destruct Hx|]. cbn [map] in E. rewrite sumZ_cons in E.
  pose proof (H a (or_introl eq_refl)).
  pose proof (sumZ_map_nonneg f l (fun x Hx => H x (or_intror Hx))).
  destruct Hx as [->|Hx]; [lia|]. apply IH; [intros y Hy; apply H; right; exact Hy|lia|exact Hx].
Qed.

Lemma sumZ_filter_if {A} (f : A -> Z) (p : A -> bool) l :
  sumZ (map f (filter p l)) = sumZ (map (fun x => if p x then f x else 0) l).
Proof. induction l as [|x l IH]; cbn [filter map]; [reflexivity|]. destruct (p x); cbn [map]; rewrite !sumZ_cons, IH; reflexivity. Qed.

Lemma sumZ_drop_zero {A} (f : A -> Z) l :
  sumZ (map f (filter (fun x => negb (f x =? 0)) l)) = sumZ (map f l).
Proof. rewrite sumZ_filter_if. apply sumZ_map_ext. intros x _. destruct (Z.eqb_spec (f x) 0) as [->|]; reflexivity. Qed.

Lemma sumZ_filter_le {A} (f : A -> Z) (g : A -> bool) l :
  (forall x, In x l -> 0 <= f x) -> sumZ (map f (filter g l)) <= sumZ (map f l).
Proof. intros H. rewrite sumZ_filter_if. apply sumZ_map_le. intros x Hx. specialize (H x Hx). destruct (g x); lia. Qed.

Lemma sumZ_filter_mono {A} (f : A -> Z) (p q : A -> bool) l :
  (forall x, In x l -> 0 <= f x) -> (forall x, In x l -> p x = true -> q x = true) ->
  sumZ (map f (filter p l)) <= sumZ (map f (filter q l)).
Proof.
  intros Hf Hpq. rewrite !sumZ_filter_if. apply sumZ_map_le. intros x Hx. specialize (Hf x Hx). specialize (Hpq x Hx).
  destruct (p x); [rewrite Hpq by reflexivity|destruct (q x)]; lia.
Qed.

Lemma sumZ_map_add {A} (f g : A -> Z) l :
  sumZ (map (fun x => f x + g x) l) = sumZ (map f l) + sumZ (map g l).
Proof. induction l as [|x l IH]; cbn [map]; rewrite ?sumZ_cons, ?sumZ_nil; lia. Qed.

Lemma sumZ_map_sub {A} (f g : A -> Z) l : sumZ (map (fun x => f x - g x) l) = sumZ (map f l) - sumZ (map g l).
Proof. induction l as [|x r IH]; cbn [map]; rewrite ?sumZ_cons; [reflexivity|]. rewrite IH. lia. Qed.

(* at most one member of a duplicate-free list passes c *)
Lemma sumZ_pick {A} (c : A -> bool) (U : list A) (v : Z) :
  NoDup U -> (forall x y, In x U -> In y U -> c x = true -> c y = true -> x = y) ->
  sumZ (map (fun u => if c u then v else 0) U) = if existsb c U then v else 0.
Proof.
  induction 1 as [|a U Ha _ IH]; intros One; [reflexivity|]. cbn [map existsb]. rewrite sumZ_cons, IH.
  - destruct (c a) eqn:Ca; cbn [orb]; [|reflexivity]. destruct (existsb c U) eqn:Ex; [|lia].
    apply existsb_exists in Ex. destruct Ex as (x & Hx & Cx).
    destruct Ha. rewrite (One a x); auto using in_eq, in_cons.
  - intros x y Hx Hy. apply One; right; assumption.
Qed.

Lemma sumZ_swap {A B} (g : A -> B -> Z) la lb :
  sumZ (map (fun a => sumZ (map (g a) lb)) la) = sumZ (map (fun b => sumZ (map (fun a => g a b) la)) lb).
Proof.
  induction la as [|a la IH]; cbn [map]; [symmetry; exact (sumZ_zeros lb)|].
  rewrite sumZ_cons, IH, <- sumZ_map_add. reflexivity.
Qed.

(* a sum over all entries is the sum, over the keys, of the sums over the entries with that key *)
Lemma sumZ_by_key {A K} (eqb : K -> K -> bool) (k : A -> K) (f : A -> Z) (U : list K) l :
  (forall u u', eqb u u' = true <-> u = u') -> NoDup U -> (forall x, In x l -> In (k x) U) ->
  sumZ (map (fun u => sumZ (map f (filter (fun x => eqb (k x) u) l))) U) = sumZ (map f l).
Proof.
  intros Eq ND Hin.
  rewrite (sumZ_map_ext _ (fun u => sumZ (map (fun x => if eqb (k x) u then f x else 0) l))) by (intros; apply sumZ_filter_if).
  rewrite sumZ_swap. apply sumZ_map_ext. intros x Hx.
  rewrite (sumZ_pick (eqb (k x))), (proj2 (existsb_exists _ _)); [reflexivity| |exact ND|].
  - exists (k x). split; [exact (Hin x Hx)|apply Eq; reflexivity].
  - intros u u' _ _ E E'. apply Eq in E, E'. congruence.
Qed.

Lemma Forall2_impl_in {A B} (R1 R2 : A -> B -> Prop) l l' :
  (forall a b, In a l -> R1 a b -> R2 a b) -> Forall2 R1 l l' -> Forall2 R2 l l'.
Proof.
  intros K F. induction F as [|a b l l' Hab F IH]; constructor; [apply K; [left; reflexivity|exact Hab]|].
  apply IH. intros x y Hx. apply K. right. exact Hx.
Qed.

Lemma Forall2_map_r {A} (R : A -> A -> Prop) (f : A -> A) l : (forall x, R x (f x)) -> Forall2 R l (map f l).
Proof. intros H. induction l as [|x l IH]; cbn [map]; constructor; auto. Qed.

Lemma Forall2_trans' {A} (R : A -> A -> Prop) :
  (forall x y z, R x y -> R y z -> R x z) ->
  forall l1 l2 l3, Forall2 R l1 l2 -> Forall2 R l2 l3 -> Forall2 R l1 l3.
Proof.
  intros HT l1 l2 l3 H12. revert l3. induction H12 as [|x y l1 l2 Hxy _ IH]; intros l3 H23.
  - inversion H23. constructor.
  - inversion H23 as [|? z ? l3' Hyz H23']; subst. constructor; [eapply HT; eassumption|apply IH; exact H23'].
Qed.

Lemma Forall2_in_l {A} (R : A -> A -> Prop) l l' x : Forall2 R l l' -> In x l -> exists y, In y l' /\ R x y.
Proof.
  induction 1 as [|a b l l' Hab _ IH]; intros Hx; [contradiction|].
  destruct Hx as [<-|Hx]; [exists b; split; [left; reflexivity|exact Hab]|].
  destruct (IH Hx) as (y & Hy & Hr). exists y. split; [right; exact Hy|exact Hr].
Qed.

Lemma map_filter_flat {A B C D} (R : C -> D -> Prop) (Q : A -> B -> Prop) (p : A -> bool) (h : A -> C) (g : A -> B -> list D) l xs :
  Forall2 Q l xs -> (forall a x, In a l -> Q a x -> Forall2 R (if p a then [h a] else []) (g a x)) ->
  Forall2 R (map h (filter p l)) (flat_map (fun ax => g (fst ax) (snd ax)) (combine l xs)).
Proof.
  intros F. induction F as [|a x l xs Hax F IH]; intros K; cbn [filter map combine flat_map fst snd]; [constructor|].
  assert (E : map h (if p a then a :: filter p l else filter p l) = (if p a then [h a] else []) ++ map h (filter p l))
    by (destruct (p a); reflexivity).
  rewrite E. apply Forall2_app; [apply K; [left; reflexivity|exact Hax]|].
  apply IH. intros b y Hb. apply K. right. exact Hb.
Qed.

Lemma flat_combine_nil {A B C} (Q : A -> B -> Prop) (g : A -> B -> list C) l xs :
  Forall2 Q l xs -> (forall a x, In a l -> Q a x -> g a x = []) ->
  flat_map (fun ax => g (fst ax) (snd ax)) (combine l xs) = [].
Proof.
  intros F. induction F as [|a x l xs Hax F IH]; intros K; cbn [combine flat_map fst snd]; [reflexivity|].
  rewrite (K a x (or_introl eq_refl) Hax). apply IH. intros b y Hb. apply K. right. exact Hb.
Qed.

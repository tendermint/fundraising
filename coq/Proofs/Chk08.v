(* Checker link for C08 (lifecycle): Checkers.c08_ok holds of every transition of the model from a
   state satisfying the invariant; with VestingPending.vesting_pending also c08_all. *)
From Coq Require Import ZArith NArith List Bool Arith Lia.
From FR Require Import Types Model Spec Checkers.
From FR.Proofs Require Import InvDefs FrameFacts TxFacts BlockFacts BlockWalk LifeTheorems GenesisFacts InvAll FixedFacts.
From FR.Proofs Require Import EqbFacts.
From FR.Proofs Require VestingPending ChkSettle.
Import ListNotations.
Open Scope Z_scope.

Lemma list_eqb_Z_app_ne x : forall l, list_eqb Z.eqb l (l ++ [x]) = false.
Proof. induction l as [|y l IH]; cbn [list_eqb app]; [reflexivity|]. rewrite Z.eqb_refl, IH. reflexivity. Qed.

(* Checkers.paired t is pairs_of (t_pre t) (t_post t); the links read it through ChkSettle.in_paired *)
Definition pairs_of (s s' : state) : list (auction * auction) :=
  flat_map (fun a => match find_auction s' (a_id a) with Some a' => [(a, a')] | None => [] end) (st_auctions s).

Lemma pairs_length_gen s' : forall l,
  (forall a, In a l -> exists a', find_auction s' (a_id a) = Some a') ->
  length (flat_map (fun a => match find_auction s' (a_id a) with Some a' => [(a, a')] | None => [] end) l) = length l.
Proof.
  induction l as [|a l IH]; intros H; [reflexivity|]. cbn [flat_map].
  destruct (H a (or_introl eq_refl)) as (a' & ->). cbn [app length]. f_equal. apply IH.
  intros x Hx. apply H. right. exact Hx.
Qed.

Lemma block_rel_check t orc s a a' :
  block_rel t orc s a a' ->
  match a_status a with
  | StandBy => Bool.eqb (status_eqb (a_status a') Started) (a_start a <=? t) && forward (a_status a) (a_status a')
               && negb (status_eqb (a_status a') Cancelled)
  | Started => Bool.eqb (settled (a_status a') || negb (list_eqb Z.eqb (a_ends a) (a_ends a'))) (last_end a <=? t)
  | VestingS => Bool.eqb (status_eqb (a_status a') Finished) (last_due t (vqs_of s (a_id a)))
  | _ => true
  end = true.
Proof.
  (* the boolean form of BlockFacts.block_out_timing, status by status *)
  intros R. pose proof (block_out_timing _ _ _ _ _ (block_rel_out _ _ _ _ _ R)) as T.
  destruct (a_status a) eqn:St; try reflexivity.
  - destruct T as (T1 & T2 & _). destruct (Z.leb_spec (a_start a) t) as [L|L].
    + rewrite (proj2 T1 L). reflexivity.
    + rewrite (T2 L), St. reflexivity.
  - destruct T as (T1 & T2). destruct (Z.leb_spec (last_end a) t) as [L|L].
    + destruct (proj2 T1 L) as [E|[E|(e & E)]]; rewrite E; [reflexivity|reflexivity|].
      rewrite list_eqb_Z_app_ne, orb_true_r. reflexivity.
    + rewrite (T2 L), St, list_eqb_Z_refl. reflexivity.
  - destruct T as (T1 & T2). destruct (last_due t (vqs_of s (a_id a))) eqn:D.
    + rewrite (proj2 T1 eq_refl). reflexivity.
    + rewrite (T2 eq_refl), St. reflexivity.
Qed.

Theorem c08_ok_model s o : Inv s -> c08_ok (model_trans s o) = true.
Proof.
  intros I. rewrite FixedFacts.model_trans_eq. cbv zeta.
  unfold c08_ok. cbn [t_post t_pre t_op t_class].
  change (Checkers.is_block o) with (FrameFacts.is_block o).
  change (Checkers.block_time o) with (FrameFacts.block_time o).
  repeat (apply andb_true_iff; split).
  - (* the pairs: forward, and either the timing of a successful block or at most a cancellation *)
    apply forallb_forall. intros [a a'] Hp. apply ChkSettle.in_paired in Hp. cbn [t_pre t_post] in Hp. destruct Hp as [Ha F'].
    cbv zeta. cbn [fst snd].
    pose proof (model_pair s o a a' I Ha F') as R.
    apply andb_true_iff. split; [exact (astep_forward _ _ _ _ R)|].
    destruct R as [[B|(c & Hc)]|who -> Ho St|who bt p c x -> Ho St|a1 B Ho R].
    + rewrite B. cbn [andb]. rewrite status_eqb_refl. reflexivity.
    + rewrite Hc, class_of_err, andb_false_r, status_eqb_refl. reflexivity.
    + unfold cancel_of. cbn. rewrite St, N.eqb_refl. reflexivity.
    + cbn. rewrite status_eqb_refl. reflexivity.
    + rewrite B, Ho. cbn [class_of oclass_eqb andb]. exact (block_rel_check _ _ _ _ _ R).
  - (* every auction of the pre-state is still there *)
    apply Nat.leb_le. unfold paired. cbn [t_pre t_post]. rewrite pairs_length_gen; [lia|].
    intros a Ha.
    destruct (step_astep (ghost_reset s) o (a_id a) a (or_introl (inv_ids _ (Inv_ghost_reset s I))) (Inv_find_in s a I Ha))
      as (a' & F' & _).
    exists a'. exact F'.
  - (* an auction the pre-state does not have was created by this step *)
    apply forallb_forall. intros a' HI. destruct (find_auction s (a_id a')) as [a|] eqn:F; [reflexivity|].
    apply ChkSettle.not_genesis_match. intros Hg.
    destruct (step_auctions_origin (ghost_reset s) o a' (Inv_ids_ok _ (Inv_ghost_reset s I)) Hg HI) as [(a & Ha & R)|C].
    + exfalso. pose proof (terms0_id _ _ (astep_terms _ _ _ _ R)) as Hid.
      pose proof (Inv_find_in s a I Ha) as Fa. rewrite <- Hid in Fa. congruence.
    + rewrite (cr_status C). apply status_eqb_refl.
  - (* bids and modifications only while open *)
    destruct o as [[| | |who id bt price coin|who id bid price coin| |]| | | | | | |]; try reflexivity.
    all: destruct (class_of _) eqn:Ec; try reflexivity; apply class_KOk in Ec.
    + destruct (tx_place_inv (step_shape_acc _ _ Ec)) as (up & u & t & p & d & amt & a & _ & _ & Fa & G & _).
      change (find_auction s id = Some a) in Fa. rewrite Fa, (pl_started G). reflexivity.
    + destruct (tx_modify_inv (step_shape_acc _ _ Ec)) as (up & u & p & d & amt & a & b0 & _ & _ & Fa & _ & G & _).
      change (find_auction s id = Some a) in Fa. rewrite Fa, (md_started G). reflexivity.
Qed.

Theorem c08_all_model s o :
  Inv s -> VestingPending.vesting_pending s -> c08_all (model_trans s o) = true.
Proof.
  intros I VP. unfold c08_all. apply andb_true_iff. split.
  - apply c08_ok_model, I.
  - apply VestingPending.pending_ok_model; assumption.
Qed.

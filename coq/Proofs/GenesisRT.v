(* C15, the export: the genesis exported from a state satisfying the invariant passes `validate`
   (export_validates; of the invariant: ids_seq, auctions_wf, bids_wf, allowed_wf, vqs_wf, params_wf).  The import of
   what was exported, and with it the round trip, is GenesisImport.v.  Also here, because both need them: the ids
   0 .. k-1 of Spec.ids_upto as a seqN, the keys of bids and allow-list entries, and what bids_wf says of the bid ids
   (bid_ids_sorted; InvStaticBase.bid_keys_NoDup is about the pairs bid_key). *)
From Coq Require Import ZArith NArith List Bool Lia.
From FR Require Import Types Genesis Spec.
From FR.Proofs Require Import ListFacts InvDefs GenesisSort.
From FR.Proofs Require InvStaticBase VestingFacts.
Import ListNotations.
Open Scope Z_scope.

Lemma ids_upto_seqN k : ids_upto k = seqN 0 (N.to_nat k).
Proof. unfold ids_upto. exact (map_of_nat_seq 0 (N.to_nat k)). Qed.

Lemma succ_ids_upto_seqN k : map N.succ (ids_upto k) = seqN 1 (N.to_nat k).
Proof. rewrite ids_upto_seqN, map_succ_seqN. reflexivity. Qed.

Lemma ids_upto_length k : length (ids_upto k) = N.to_nat k.
Proof. rewrite ids_upto_seqN. apply seqN_length. Qed.

Definition bid_key (b : bid) : N * N := (b_auction b, b_id b).
Definition allowed_key (x : allowed) : N * N := (al_auction x, al_bidder x).

Lemma bid_ids_sorted s id : bids_wf s -> Sorted.StronglySorted N.lt (map b_id (bids_of s id)).
Proof. intros [_ Hids]. rewrite Hids, succ_ids_upto_seqN. apply seqN_sorted. Qed.

Lemma auction_ids_NoDup s : ids_seq s -> NoDup (map a_id (st_auctions s)).
Proof. intros H. rewrite H. apply InvStaticBase.ids_upto_nodup. Qed.

Lemma auction_ok_of_wf a : auction_wf a -> auction_ok a = true.
Proof.
  intros H. unfold auction_ok.
  pose proof (awf_price a H) as Hp. pose proof (awf_amt a H) as Ha.
  pose proof (awf_denoms a H) as Hd. pose proof (awf_scheds a H) as Hs.
  apply Z.ltb_lt in Hp. rewrite Hp.
  assert (0 <=? a_sell_amt a = true) as Ha' by (apply Z.leb_le; lia). rewrite Ha'.
  apply N.eqb_neq in Hd. rewrite Hd. cbn [andb negb].
  destruct Hs as [Hs|Hs]; [rewrite Hs; reflexivity|].
  destruct (a_scheds a); [reflexivity|exact Hs].
Qed.

Lemma bid_ok_of_wf s b : bid_wf s b -> bid_ok b = true.
Proof.
  intros H. unfold bid_ok. apply andb_true_intro. split; apply Z.ltb_lt; [apply (bwf_price s b H)|apply (bwf_amt s b H)].
Qed.

(* the duplicate checks of Validate compare the two components of a key *)
Lemma eqb_pair_NN (a b c d : N) : N.eqb a b && N.eqb c d = true -> (a, c) = (b, d).
Proof. intros E. apply andb_prop in E. destruct E as [E1 E2]. apply N.eqb_eq in E1. apply N.eqb_eq in E2. congruence. Qed.

Lemma eqb_pair_NZ (a b : N) (c d : Z) : N.eqb a b && (c =? d) = true -> (a, c) = (b, d).
Proof. intros E. apply andb_prop in E. destruct E as [E1 E2]. apply N.eqb_eq in E1. apply Z.eqb_eq in E2. congruence. Qed.

Lemma nodup_by_sort {A K} (le : A -> A -> bool) (key : A -> K) (eqb : A -> A -> bool) l :
  (forall x y, eqb x y = true -> key x = key y) -> NoDup (map key l) -> nodup_by eqb (sort_by le l) = true.
Proof. intros Hk Hnd. apply (nodup_by_of_NoDup key); [exact Hk|]. apply sort_by_NoDup_keys. exact Hnd. Qed.

Theorem export_validates_parts s :
  ids_seq s -> auctions_wf s -> bids_wf s -> allowed_wf s -> vqs_wf s -> params_wf s ->
  validate (export s) = true.
Proof.
  intros Hids Hau Hb Hal Hvq [Hc Hf].
  unfold validate, export. cbn [g_allowed g_vqs g_bids g_auctions g_params].
  repeat (apply andb_true_intro; split).
  - apply (nodup_by_sort _ allowed_key); [|apply Hal]. intros x y. apply eqb_pair_NN.
  - apply (Forall_forallb _ (fun x => 0 < al_max x)); [|apply sort_by_Forall, Hal].
    intros x Hx. apply Z.ltb_lt. exact Hx.
  - apply (nodup_by_sort _ VestingFacts.vkey); [|apply Hvq]. intros x y. apply eqb_pair_NZ.
  - apply (Forall_forallb _ (vq_wf s)); [|apply sort_by_Forall, Hvq].
    intros v Hv. apply Z.leb_le. apply (vwf_amt s v Hv).
  - apply (nodup_by_sort _ bid_key); [|apply InvStaticBase.bid_keys_NoDup, Hb]. intros x y. apply eqb_pair_NN.
  - apply (Forall_forallb _ (bid_wf s)); [apply bid_ok_of_wf|apply sort_by_Forall, Hb].
  - apply (nodup_by_of_NoDup a_id); [|apply auction_ids_NoDup, Hids]. intros x y. apply N.eqb_eq.
  - apply (Forall_forallb _ auction_wf); [apply auction_ok_of_wf|exact Hau].
  - exact Hc.
  - exact Hf.
Qed.

Theorem export_validates s : Inv s -> validate (export s) = true.
Proof.
  intros H. apply export_validates_parts; apply H.
Qed.

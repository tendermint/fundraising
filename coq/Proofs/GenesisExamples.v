(* A concrete reachable state for the Examples of Properties/C15.v, C15_checker.v and (with a listener added)
   C17_checker.v: the history below leaves auction 0 (batch) in the middle of its extended rounds with flagged
   bids, and auction 1 (fixed price) in vesting with two instalments, the first one released; two allowed bidders
   each.  It satisfies Inv (g_state_Inv).  The history is evaluated once (g_run); the examples start from its two
   halves, g_outs_eq (the outcomes) and g_state_eq (the final state). *)
From Coq Require Import ZArith NArith List Lia.
From FR Require Import Dec Types Model.
From FR.Proofs Require Import InvDefs InvAll GenesisCongrBlock.
Import ListNotations.
Open Scope Z_scope.

Definition g_init : state :=
  init_state (fun a _ => match a with User _ => 1000000 | _ => 0 end) 100 true
             {| p_cfee := [(0%N, 10)]; p_bfee := [(0%N, 1)]; p_period := 1 |}.

Definition g_coin (d : N) (a : Z) : mcoin := {| mc_denom := Some d; mc_amt := Some a |}.

Definition g_ops : list op :=
  [ OTx (MCreateBatch (AGood false 0) (Some P) (Some (P / 2)) (g_coin 1 500) (Some 2%N) [] 2 (Some (P / 10)) 50 200);
    OTx (MCreateFixed (AGood true 1) (Some P) (g_coin 1 1000) (Some 2%N)
           [{| ms_time := 400; ms_weight := Some (P / 2) |}; {| ms_time := 500; ms_weight := Some (P / 2) |}] 50 300);
    OApiAdd 1 [(1%N, AGood false 3, Some 200); (1%N, AGood false 2, Some 200)];
    OApiAdd 0 [(0%N, AGood false 3, Some 100); (0%N, AGood false 2, Some 100)];
    OTx (MPlaceBid (AGood false 2) 1 1 (Some P) (g_coin 2 100));
    OTx (MPlaceBid (AGood false 2) 0 2 (Some P) (g_coin 2 50));
    OTx (MPlaceBid (AGood false 3) 0 3 (Some (2 * P)) (g_coin 1 30));
    OTx (MPlaceBid (AGood false 3) 1 1 (Some P) (g_coin 1 50));
    OTx (MPlaceBid (AGood false 2) 0 2 (Some (P / 2)) (g_coin 2 10));
    OBlock 200 [(0%N, [2%N; 1%N; 3%N])];
    OBlock 300 [];
    OBlock 400 [] ].

Definition g_state : state := run g_init g_ops.

Lemma g_init_Inv : Inv g_init.
Proof. apply Inv_init; [intros [] ?; cbn; lia|reflexivity..]. Qed.

Theorem g_state_Inv : Inv g_state.
Proof. apply Inv_reachable; [intros [] ?; cbn; lia|reflexivity..]. Qed.
Print Assumptions g_state_Inv.

(* the history evaluated once: the examples start from these two values *)
Definition g_outs : list outcome := Eval vm_compute in outcomes g_init g_ops.
Definition g_state_nf : state := Eval vm_compute in g_state.

Lemma g_run : outcomes g_init g_ops = g_outs /\ g_state = g_state_nf.
Proof.
  assert (run_outs g_init g_ops = (g_outs, g_state_nf)) as R by (vm_compute; reflexivity).
  rewrite run_outs_eq in R. apply pair_equal_spec in R. exact R.
Qed.

Lemma g_outs_eq : outcomes g_init g_ops = g_outs.
Proof. exact (proj1 g_run). Qed.

Lemma g_state_eq : g_state = g_state_nf.
Proof. exact (proj2 g_run). Qed.

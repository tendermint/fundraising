(* InvS is preserved by each pure update of the state the handlers and the block processing perform.  In every InvS_*
   lemma the parts the update does not touch are closed at once (they are the old ones up to computation); a bullet,
   named after its part, stands for each of the others.  The mlen_inv_* lemmas before each of them are J9 under the same
   update on its own, which PublishInv.v uses without the rest of InvS. *)
From Coq Require Import ZArith NArith List Bool Lia.
From FR Require Import Types Match Step Genesis.
From FR.Proofs Require Import ListFacts FrameFacts TxFacts InvDefs InvStaticBase.
Import ListNotations.
Open Scope Z_scope.

Lemma auction_wf_set_status a x : auction_wf a -> auction_wf (set_status a x).
Proof.
  intros [H1 H2 H3 H4 H5 H6 H7 H8 H9].
  split; [exact H1|exact H2|exact H3|exact H4|exact H5|exact H6|exact H7|exact H8|exact H9].
Qed.

Lemma auction_wf_set_remaining a x :
  a_type a = FixedPrice -> 0 <= x <= a_sell_amt a -> auction_wf a -> auction_wf (set_remaining a x).
Proof.
  intros T Hx [H1 H2 H3 H4 H5 H6 H7 H8 H9].
  split; [exact H1|exact H2|exact H3|exact H4|exact H5|exact H6|exact H7| |].
  - cbn [a_type set_remaining]. intros C. congruence.
  - cbn [a_type a_min_price a_rate a_max_round a_matched_price a_remaining a_sell_amt set_remaining].
    intros C. destruct (H9 C) as (K1 & K2 & K3 & K4 & _). repeat split; try assumption; lia.
Qed.

Lemma auction_wf_set_matched_price a p :
  a_type a = Batch -> 0 <= p -> auction_wf a -> auction_wf (set_matched_price a p).
Proof.
  intros T Hp [H1 H2 H3 H4 H5 H6 H7 H8 H9].
  split; [exact H1|exact H2|exact H3|exact H4|exact H5|exact H6|exact H7| |].
  - cbn [a_type a_min_price a_rate a_remaining a_matched_price set_matched_price].
    intros C. destruct (H8 C) as (K1 & K2 & K3 & _). repeat split; assumption.
  - cbn [a_type set_matched_price]. intros C. congruence.
Qed.

Lemma auction_wf_set_ends a e :
  (1 <= length e <= N.to_nat (a_max_round a) + 1)%nat -> hd 0 e = hd 0 (a_ends a) ->
  auction_wf a -> auction_wf (set_ends a e).
Proof.
  intros He Hh [H1 H2 H3 H4 H5 H6 H7 H8 H9].
  split; [exact H1|exact H2|exact H3|exact He|exact H5| |exact H7|exact H8|exact H9].
  unfold scheds_wf, first_end in *. cbn [a_scheds a_ends set_ends]. rewrite Hh. exact H6.
Qed.

(* what an update of an auction record may change: not its terms, and StandBy or Cancelled is reached only from StandBy *)
Definition upd_ok (a a' : auction) : Prop :=
  a_id a' = a_id a /\ a_type a' = a_type a /\ a_start_price a' = a_start_price a
  /\ a_sell_denom a' = a_sell_denom a /\ a_pay_denom a' = a_pay_denom a /\ a_min_price a' = a_min_price a
  /\ (a_status a' = StandBy \/ a_status a' = Cancelled -> a_status a = StandBy).

Lemma upd_ok_id a a' : upd_ok a a' -> a_id a' = a_id a.
Proof. intros U. apply U. Qed.
Lemma upd_ok_type a a' : upd_ok a a' -> a_type a' = a_type a.
Proof. intros U. apply U. Qed.
Lemma upd_ok_waiting a a' : upd_ok a a' -> a_status a' = StandBy \/ a_status a' = Cancelled -> a_status a = StandBy.
Proof. intros U. apply U. Qed.

Lemma upd_ok_set_status a0 a x : upd_ok a0 a -> x <> StandBy -> x <> Cancelled -> upd_ok a0 (set_status a x).
Proof.
  intros (U1 & U2 & U3 & U4 & U5 & U6 & _) N1 N2. unfold upd_ok. cbn [set_status a_id a_type a_start_price
    a_sell_denom a_pay_denom a_min_price a_status]. repeat split; try assumption. intros [C|C]; congruence.
Qed.
Lemma upd_ok_same_status a a' :
  a_id a' = a_id a -> a_type a' = a_type a -> a_start_price a' = a_start_price a ->
  a_sell_denom a' = a_sell_denom a -> a_pay_denom a' = a_pay_denom a -> a_min_price a' = a_min_price a ->
  a_status a' = a_status a -> a_status a <> Cancelled -> upd_ok a a'.
Proof.
  intros H1 H2 H3 H4 H5 H6 H7 H8. unfold upd_ok. repeat split; try assumption.
  rewrite H7. intros [C|C]; [exact C|contradiction].
Qed.

Lemma bid_wf_put_auction s a a' b :
  find_auction s (a_id a) = Some a -> upd_ok a a' -> bid_wf s b -> bid_wf (put_auction s a') b.
Proof.
  intros F (U1 & U2 & U3 & U4 & U5 & U6 & U7) [H1 H2 H3 (a0 & F0 & HT & S1 & S2)].
  split; [exact H1|exact H2|exact H3|].
  rewrite find_auction_put. destruct (N.eqb (b_auction b) (a_id a')) eqn:E.
  - apply N.eqb_eq in E. rewrite U1 in E. rewrite E in F0.
    rewrite F in F0. injection F0 as <-.
    rewrite E, F. exists a'. split; [reflexivity|].
    rewrite U2, U3, U4, U5, U6. split; [exact HT|].
    split; intros C; apply S1; apply U7; [left|right]; exact C.
  - exists a0. repeat split; assumption.
Qed.

(* J9 reads the types of the records, the flags of the bids and the counts *)
Lemma mlen_inv_ext s s' :
  st_auctions s' = st_auctions s -> st_bids s' = st_bids s -> st_mlen s' = st_mlen s -> mlen_inv s -> mlen_inv s'.
Proof. intros Ha Hb Hm W. unfold mlen_inv, find_auction. rewrite Ha, Hb, Hm. exact W. Qed.

Lemma mlen_inv_put_auction s a a' :
  find_auction s (a_id a) = Some a -> a_id a' = a_id a -> a_type a' = a_type a -> mlen_inv s ->
  mlen_inv (put_auction s a').
Proof.
  intros F U1 U2 W id. specialize (W id). rewrite find_auction_put. destruct (N.eqb id (a_id a')) eqn:E; [|exact W].
  apply N.eqb_eq in E. subst id. rewrite U1 in *. rewrite F in *. rewrite U2. exact W.
Qed.

Lemma InvS_put_auction s a a' :
  InvS s -> find_auction s (a_id a) = Some a -> upd_ok a a' -> auction_wf a' -> InvS (put_auction s a').
Proof.
  intros I F U W. split; try solve [apply I].
  - (* ids_seq *) pose proof (is_ids s I) as Iids.
    unfold ids_seq, put_auction in *. cbn [st_auctions st_aseq with_auctions]. rewrite map_id_put. exact Iids.
  - (* auctions_wf *) pose proof (is_auctions s I) as Iauc. unfold auctions_wf, put_auction in *. cbn [st_auctions with_auctions].
    rewrite Forall_forall in *. intros x Hx. apply in_map_iff in Hx. destruct Hx as (y & <- & Hy).
    destruct (N.eqb (a_id y) (a_id a')); [exact W|apply Iauc; exact Hy].
  - (* bids_wf *) destruct (is_bids s I) as [B1 B2]. split.
    + change (st_bids (put_auction s a')) with (st_bids s).
      eapply Forall_impl; [|exact B1]. intros b. apply (bid_wf_put_auction s a a' b F U).
    + exact B2.
  - (* mlen_inv *) exact (mlen_inv_put_auction s a a' F (upd_ok_id _ _ U) (upd_ok_type _ _ U) (is_mlen s I)).
  - (* fresh_inv *) split; [exact (fresh_free s (is_fresh s I))|].
    intros a1 Ha1 St. unfold put_auction in Ha1. cbn [st_auctions with_auctions] in Ha1.
    apply in_map_iff in Ha1. destruct Ha1 as (x & Hx & Hin).
    change (bids_of (put_auction s a') (a_id a1)) with (bids_of s (a_id a1)).
    destruct (N.eqb (a_id x) (a_id a')) eqn:E.
    + subst a1. rewrite (upd_ok_id _ _ U). apply (fresh_waiting s (is_fresh s I)); [apply find_auction_some in F; apply F|].
      left. apply (upd_ok_waiting _ _ U). exact St.
    + subst a1. apply (fresh_waiting s (is_fresh s I)); assumption.
Qed.

Lemma mlen_inv_set_flags s id a m :
  find_auction s id = Some a -> a_type a = Batch -> NoDup (map b_id (bids_of s id)) ->
  NoDup m -> incl m (map b_id (bids_of s id)) -> mlen_inv s -> mlen_inv (set_flags s id m).
Proof.
  intros F T Nb Nm Hm W j. specialize (W j). change (find_auction (set_flags s id m) j) with (find_auction s j).
  change (st_mlen (set_flags s id m) j) with (upd (st_mlen s) id (Z.of_nat (length m)) j). unfold upd.
  destruct (N.eqb j id) eqn:E.
  - apply N.eqb_eq in E. subst j. rewrite F, T.
    rewrite count_matched_of, bids_of_set_flags, filter_map_swap, map_length.
    rewrite (filter_ext_in _ (fun b => existsb (N.eqb (b_id b)) m))
      by (intros b Hb; apply flag_fn_matched, (proj1 (bids_of_in _ _ _) Hb)).
    f_equal. symmetry. apply count_mem; assumption.
  - rewrite (count_matched_map s _ (flag_fn id m) j (bids_of_set_flags s id m j)); [exact W|].
    intros b Hb. apply bids_of_in in Hb. destruct Hb as [_ <-]. apply N.eqb_neq in E.
    rewrite (flag_fn_other id m b E). reflexivity.
Qed.

Lemma InvS_set_flags s id a m :
  InvS s -> find_auction s id = Some a -> a_type a = Batch ->
  NoDup m -> incl m (map b_id (bids_of s id)) -> InvS (set_flags s id m).
Proof.
  intros I F T Nm Hm. pose proof (InvS_find_lt s id a I F) as Hlt.
  split; try solve [apply I].
  - (* bids_wf *) pose proof (is_bids s I) as [B1 B2]. split.
    + rewrite set_flags_eq. cbn [st_bids with_bids with_mlen]. rewrite Forall_forall in *.
      intros x Hx. apply in_map_iff in Hx. destruct Hx as (b & <- & Hb). specialize (B1 b Hb).
      destruct B1 as [H1 H2 H3 (a0 & F0 & HT & S1 & S2)].
      unfold flag_fn. destruct (N.eqb (b_auction b) id) eqn:E; [|split; try assumption; exists a0; auto].
      apply N.eqb_eq in E. split; [exact H1|exact H2|exact H3|].
      exists a0. split; [exact F0|]. split; [|split; assumption].
      rewrite E, F in F0. injection F0 as <-. rewrite T in *. exact HT.
    + intros j. rewrite bids_of_set_flags, map_map.
      rewrite (map_ext _ b_id (flag_fn_id id m)). apply B2.
  - (* mlen_inv *) exact (mlen_inv_set_flags s id a m F T (bids_wf_nodup s id (is_bids s I)) Nm Hm (is_mlen s I)).
  - (* fresh_inv *) split; [exact (fresh_free_frame id s _ (frame_set_flags id s m) eq_refl Hlt (is_fresh s I))|].
    intros a1 Ha1 St. rewrite bids_of_set_flags. rewrite (fresh_waiting s (is_fresh s I) a1 Ha1 St). reflexivity.
Qed.

Lemma InvS_vqs_lt s : InvS s -> Forall (fun v => (v_auction v < st_aseq s)%N) (st_vqs s).
Proof.
  intros I. apply vqs_fresh_iff. intros id Hid. exact (fresh_vqs s id (is_fresh s I) Hid).
Qed.

Lemma InvS_with_vqs s l :
  InvS s -> Forall (fun v => (v_auction v < st_aseq s)%N) l -> InvS (with_vqs s l).
Proof.
  intros I Hl. split; try solve [apply I].
  - (* bids_wf *) eapply bids_wf_dep; [| | |exact (is_bids s I)]; reflexivity.
  - (* fresh_inv *) split; [|exact (fresh_waiting s (is_fresh s I))].
    intros j Hj. destruct (fresh_free s (is_fresh s I) j Hj) as (Kbseq & Kbids & Kallowed & _ & Kmlen).
    repeat split; try assumption.
    unfold vqs_of. cbn [st_vqs with_vqs]. apply (proj2 (vqs_fresh_iff l (st_aseq s))); assumption.
Qed.

(* a record appended; it is found only if its id was free, and then that id must have no bids; n is the new counter *)
Lemma mlen_inv_create s n a :
  (find_auction s (a_id a) = None -> bids_of s (a_id a) = []) -> mlen_inv s ->
  mlen_inv (with_auctions (with_aseq s n) (st_auctions s ++ [a])).
Proof.
  intros K W j. specialize (W j). set (s' := with_auctions _ _).
  rewrite (find_auction_conv_app s s' a j eq_refl).
  change (st_mlen _ j) with (st_mlen s j). change (st_bids _) with (st_bids s).
  destruct (find_auction s j) as [x|] eqn:Fj; [exact W|].
  destruct (N.eqb (a_id a) j) eqn:E; [|exact W]. apply N.eqb_eq in E. subst j.
  destruct (a_type a); [exact W|]. rewrite W. symmetry. apply count_matched_nil, K, Fj.
Qed.

Lemma InvS_create s a :
  InvS s -> a_id a = st_aseq s -> auction_wf a ->
  InvS (with_auctions (with_aseq s (st_aseq s + 1)) (st_auctions s ++ [a])).
Proof.
  intros I Hid W. pose proof (is_fresh s I) as Ifresh.
  set (s' := with_auctions (with_aseq s (st_aseq s + 1)) (st_auctions s ++ [a])).
  assert (FA : forall j, find_auction s' j
                 = match find_auction s j with Some x => Some x
                   | None => if N.eqb (a_id a) j then Some a else None end).
  { intros j. apply find_auction_conv_app. reflexivity. }
  split; try solve [apply I].
  - (* ids_seq *) pose proof (is_ids s I) as Iids. unfold ids_seq in *. subst s'. cbn [st_auctions st_aseq with_auctions with_aseq].
    rewrite map_app, ids_upto_succ, Iids. cbn [map]. rewrite Hid. reflexivity.
  - (* auctions_wf *) unfold auctions_wf in *. subst s'. cbn [st_auctions with_auctions].
    apply Forall_app. split; [exact (is_auctions s I)|constructor; [exact W|constructor]].
  - (* bids_wf *) destruct (is_bids s I) as [B1 B2]. split; [|exact B2].
    change (st_bids s') with (st_bids s). eapply Forall_impl; [|exact B1].
    intros b [H1 H2 H3 (a0 & F0 & HT)]. split; [exact H1|exact H2|exact H3|].
    exists a0. rewrite FA, F0. split; [reflexivity|exact HT].
  - (* mlen_inv *) apply mlen_inv_create; [|exact (is_mlen s I)].
    intros _. rewrite Hid. exact (fresh_bids s _ Ifresh (N.le_refl _)).
  - (* fresh_inv *) split.
    + intros j Hj. subst s'. cbn [st_aseq with_auctions with_aseq] in Hj.
      apply (fresh_free s Ifresh j). lia.
    + intros a1 Ha1 St. subst s'. cbn [st_auctions with_auctions] in Ha1.
      change (bids_of (with_auctions (with_aseq s (st_aseq s + 1)) (st_auctions s ++ [a])) (a_id a1))
        with (bids_of s (a_id a1)).
      apply in_app_or in Ha1. destruct Ha1 as [Ha1|[<-|[]]]; [apply (fresh_waiting s Ifresh); assumption|].
      rewrite Hid. exact (fresh_bids s _ Ifresh (N.le_refl _)).
Qed.

(* the clause of InvDefs.bid_wf that ties a bid to the terms of its auction: a copy of the match written there, which
   InvS_place passes for it by conversion; keep the two in step *)
Definition bid_terms_ok (a : auction) (b : bid) : Prop :=
  match a_type a with
  | FixedPrice => b_type b = BFixed /\ (b_denom b = a_pay_denom a \/ b_denom b = a_sell_denom a)
                  /\ b_price b = a_start_price a
                  /\ b_matched b = (0 <? sell_amount (a_pay_denom a) b)
  | Batch => ((b_type b = BWorth /\ b_denom b = a_pay_denom a) \/ (b_type b = BMany /\ b_denom b = a_sell_denom a))
             /\ a_min_price a <= b_price b
  end.

Lemma count_matched_snoc bs b j :
  N.eqb (b_auction b) j && b_matched b = false -> count_matched (bs ++ [b]) j = count_matched bs j.
Proof.
  intros H. unfold count_matched. rewrite filter_app.
  cbn [filter]. rewrite H, app_nil_r. reflexivity.
Qed.

(* a bid appended unflagged, or to a fixed price auction; q is the new counter table, which J9 does not read *)
Lemma mlen_inv_place s q b :
  (forall a, find_auction s (b_auction b) = Some a -> a_type a = Batch -> b_matched b = false) ->
  mlen_inv s -> mlen_inv (with_bids (with_bseq s q) (st_bids s ++ [b])).
Proof.
  intros Hm W j. specialize (W j). change (find_auction _ j) with (find_auction s j).
  change (st_mlen _ j) with (st_mlen s j). cbn [st_bids with_bids].
  destruct (find_auction s j) as [x|] eqn:Fj; [|exact W].
  destruct (a_type x) eqn:Tx; [exact W|]. rewrite count_matched_snoc; [exact W|].
  destruct (N.eqb (b_auction b) j) eqn:E; [|reflexivity]. apply N.eqb_eq in E. subst j.
  rewrite (Hm x Fj Tx). reflexivity.
Qed.

Lemma InvS_place s a b :
  InvS s -> find_auction s (b_auction b) = Some a -> a_status a = Started ->
  b_id b = (st_bseq s (b_auction b) + 1)%N -> 0 < b_price b -> 0 < b_amt b ->
  bid_terms_ok a b -> (a_type a = Batch -> b_matched b = false) ->
  InvS (with_bids (with_bseq s (upd (st_bseq s) (b_auction b) (b_id b))) (st_bids s ++ [b])).
Proof.
  intros I F St Hid Hp Ha HT Hm. pose proof (InvS_find_lt s _ a I F) as Hlt.
  pose proof (ids_seq_ids_ok s (is_ids s I)) as IO.
  set (id := b_auction b) in *.
  set (s' := with_bids (with_bseq s (upd (st_bseq s) id (b_id b))) (st_bids s ++ [b])).
  assert (BO : forall j, bids_of s' j = if N.eqb id j then bids_of s j ++ [b] else bids_of s j).
  { intros j. unfold bids_of. subst s'.
    cbn [st_bids with_bids]. rewrite filter_app. cbn [filter].
    fold id. destruct (N.eqb id j); [reflexivity|apply app_nil_r]. }
  split; try solve [apply I].
  - (* bids_wf *) destruct (is_bids s I) as [B1 B2]. split.
    + subst s'. cbn [st_bids with_bids]. apply Forall_app. split.
      * eapply Forall_impl; [|exact B1]. intros x [H1 H2 H3 H4]. split; [exact H1|exact H2| |exact H4].
        cbn [st_bseq with_bids with_bseq]. unfold upd.
        destruct (N.eqb (b_auction x) id) eqn:E; [|exact H3]. apply N.eqb_eq in E. rewrite E in H3. lia.
      * constructor; [|constructor]. split; [exact Hp|exact Ha| |].
        -- cbn [st_bseq with_bids with_bseq]. unfold upd. fold id.
           rewrite N.eqb_refl. lia.
        -- exists a. split; [exact F|]. split; [exact HT|].
           rewrite St. split; discriminate.
    + intros j. rewrite BO. subst s'.
      cbn [st_bseq with_bids with_bseq]. unfold upd.
      rewrite (N.eqb_sym j id). destruct (N.eqb id j) eqn:E; [|apply B2].
      apply N.eqb_eq in E. subst j. rewrite map_app, B2, Hid, ids_upto_succ, map_app. cbn [map].
      rewrite Hid, N.add_1_r. reflexivity.
  - (* mlen_inv *) apply mlen_inv_place; [|exact (is_mlen s I)].
    intros x Fx. fold id in Fx. rewrite F in Fx. injection Fx as <-. exact Hm.
  - (* fresh_inv *) split; [apply (fresh_free_frame id s); [subst s'; by_fields|reflexivity|exact Hlt|exact (is_fresh s I)]|].
    intros a1 Ha1 St1. rewrite BO.
    destruct (N.eqb id (a_id a1)) eqn:E; [|apply (fresh_waiting s (is_fresh s I)); assumption].
    apply N.eqb_eq in E. pose proof (ids_ok_find s a1 IO Ha1) as F1'. rewrite <- E, F in F1'.
    injection F1' as <-. rewrite St in St1. destruct St1; discriminate.
Qed.

(* new terms for the one bid with the key of b0: no flag changes *)
Lemma mlen_inv_put_bid s b0 p amt :
  (forall x, In x (st_bids s) -> b_auction x = b_auction b0 -> b_id x = b_id b0 -> x = b0) ->
  mlen_inv s -> mlen_inv (put_bid s (set_b_terms b0 p amt)).
Proof.
  intros U W j. specialize (W j). set (b' := set_b_terms b0 p amt).
  change (find_auction (put_bid s b') j) with (find_auction s j).
  change (st_mlen (put_bid s b') j) with (st_mlen s j).
  rewrite (count_matched_map s _ (repl_fn b') j (bids_of_put_bid s b' j)); [exact W|].
  intros x Hx. apply bids_of_in in Hx. destruct Hx as [Hx _]. unfold repl_fn.
  destruct (N.eqb (b_auction x) (b_auction b') && N.eqb (b_id x) (b_id b')) eqn:E; [|reflexivity].
  apply andb_true_iff in E. destruct E as [E1 E2]. apply N.eqb_eq in E1, E2.
  rewrite (U x Hx E1 E2). reflexivity.
Qed.

Lemma InvS_set_b_terms s id k a b0 p amt :
  InvS s -> find_bid s id k = Some b0 -> find_auction s id = Some a ->
  a_type a = Batch -> a_min_price a <= p -> 0 < p -> 0 < amt ->
  InvS (put_bid s (set_b_terms b0 p amt)).
Proof.
  intros I FB F T Hmin Hp Ha. set (b' := set_b_terms b0 p amt).
  destruct (find_bid_some _ _ _ _ FB) as (Hin0 & <- & _).
  pose proof (is_bids s I) as [B1 B2].
  assert (W0 : bid_wf s b0) by (rewrite Forall_forall in B1; apply B1; exact Hin0).
  split; try solve [apply I].
  - (* bids_wf *) split.
    + rewrite put_bid_eq. cbn [st_bids with_bids]. rewrite Forall_forall in *.
      intros y Hy. apply in_map_iff in Hy. destruct Hy as (x & <- & Hx).
      unfold repl_fn. destruct (N.eqb (b_auction x) (b_auction b') && N.eqb (b_id x) (b_id b')) eqn:E.
      * destruct W0 as [H1 H2 H3 (a0 & F0 & HT & S1 & S2)]. split; [exact Hp|exact Ha|exact H3|].
        exists a0. split; [exact F0|]. split; [|split; assumption].
        rewrite F in F0. injection F0 as <-. rewrite T in *.
        destruct HT as [HT _]. split; [exact HT|exact Hmin].
      * eapply bid_wf_dep; [| |apply B1; exact Hx]; reflexivity.
    + intros j. rewrite bids_of_put_bid, map_map. rewrite (map_ext _ b_id (repl_fn_id b')). apply B2.
  - (* mlen_inv *) apply mlen_inv_put_bid; [|exact (is_mlen s I)]. intros x Hx E1 E2.
    apply (NoDup_map_inj b_id (bids_of s (b_auction b0))); [apply bids_wf_nodup; exact (is_bids s I)| | |exact E2];
      apply bids_of_in; auto.
  - (* fresh_inv *) pose proof (InvS_find_lt s _ a I F) as Hlt.
    split; [apply (fresh_free_frame (b_auction b0) s); [by_fields|reflexivity|exact Hlt|exact (is_fresh s I)]|].
    intros a1 Ha1 St. rewrite bids_of_put_bid. rewrite (fresh_waiting s (is_fresh s I) a1 Ha1 St). reflexivity.
Qed.

Lemma put_allowed_list_wf l a u m :
  0 < m -> Forall (fun x => 0 < al_max x) l -> NoDup (map (fun x => (al_auction x, al_bidder x)) l) ->
  Forall (fun x => 0 < al_max x) (put_allowed_list l a u m)
  /\ NoDup (map (fun x => (al_auction x, al_bidder x)) (put_allowed_list l a u m)).
Proof.
  intros Hm HF HN. unfold put_allowed_list.
  destruct (find (fun x => N.eqb (al_auction x) a && N.eqb (al_bidder x) u) l) as [e|] eqn:E.
  - split.
    + rewrite Forall_forall in *. intros y Hy. apply in_map_iff in Hy. destruct Hy as (x & <- & Hx).
      destruct (N.eqb (al_auction x) a && N.eqb (al_bidder x) u); [exact Hm|apply HF; exact Hx].
    + rewrite map_map. erewrite map_ext; [exact HN|]. intros x. cbn beta.
      destruct (N.eqb (al_auction x) a && N.eqb (al_bidder x) u) eqn:E2; [|reflexivity].
      apply andb_true_iff in E2. destruct E2 as [E2 E3]. apply N.eqb_eq in E2, E3.
      cbn. congruence.
  - split.
    + apply Forall_app. split; [exact HF|constructor; [exact Hm|constructor]].
    + rewrite map_app. cbn [map al_auction al_bidder]. apply NoDup_snoc; [exact HN|].
      intros HI. apply in_map_iff in HI. destruct HI as (x & Hx & HI). injection Hx as X1 X2.
      pose proof (find_none _ _ E x HI) as C. cbn beta in C. rewrite X1, X2, !N.eqb_refl in C. discriminate.
Qed.

Lemma InvS_put_allowed s id a u m :
  InvS s -> find_auction s id = Some a -> 0 < m -> InvS (put_allowed s id u m).
Proof.
  intros I F Hm. pose proof (InvS_find_lt s id a I F) as Hlt.
  rewrite put_allowed_eq. split; try solve [apply I].
  - (* bids_wf *) eapply bids_wf_dep; [| | |exact (is_bids s I)]; reflexivity.
  - (* allowed_wf *) destruct (is_allowed s I) as [A1 A2]. unfold allowed_wf. cbn [st_allowed with_allowed].
    apply put_allowed_list_wf; assumption.
  - (* fresh_inv *) split; [|exact (fresh_waiting s (is_fresh s I))].
    apply (fresh_free_frame id s); [by_fields|reflexivity|exact Hlt|exact (is_fresh s I)].
Qed.

Lemma InvS_with_params s p :
  InvS s -> coins_ok (p_cfee p) None = true -> coins_ok (p_bfee p) None = true -> InvS (with_params s p).
Proof.
  intros I H1 H2. split; try solve [apply I].
  - (* bids_wf *) eapply bids_wf_dep; [| | |exact (is_bids s I)]; reflexivity.
  - (* params_wf *) split; assumption.
Qed.

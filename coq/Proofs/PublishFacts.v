(* C16, first sentence: the published flags and numbers say what happened.
   set_flags / close_batch (matched flags, matched length, matched price), place_bid (fixed price flag);
   the queries are read in Properties/C16.v (opt_match_spec is the lemma they use). *)
From Coq Require Import ZArith NArith List Bool Lia Permutation.
From FR Require Import Types Match Step Genesis Model Spec.
From FR.Proofs Require Import ListFacts EqbFacts FrameFacts TxFacts BlockFacts BlockWalk MatchSweep MatchDemand MatchBatch
     MatchConseq.
From FR.Proofs Require InvStaticBase.
From FR.Proofs Require Import LedgerSettle.
Import ListNotations.
Open Scope Z_scope.

Definition flag_with (m : list N) (b : bid) : bid := set_b_matched b (existsb (N.eqb (b_id b)) m).

Lemma flag_with_keys m b : bid_keys_eq b (flag_with m b).
Proof. repeat split. Qed.
Lemma flag_with_matched m b : b_matched (flag_with m b) = true <-> In (b_id b) m.
Proof. unfold flag_with. cbn [b_matched set_b_matched]. apply existsb_eqb_in. Qed.
Lemma flag_with_terms m b :
  b_auction (flag_with m b) = b_auction b /\ b_id (flag_with m b) = b_id b /\ b_bidder (flag_with m b) = b_bidder b
  /\ b_type (flag_with m b) = b_type b /\ b_price (flag_with m b) = b_price b /\ b_denom (flag_with m b) = b_denom b
  /\ b_amt (flag_with m b) = b_amt b.
Proof. repeat split. Qed.

Lemma in_flagged m bs (Q : bid -> Prop) :
  (forall b0, In b0 bs -> Q (flag_with m b0)) -> forall b, In b (map (flag_with m) bs) -> Q b.
Proof. intros H b Hb. apply in_map_iff in Hb. destruct Hb as (b0 & <- & Hb0). exact (H b0 Hb0). Qed.

Lemma set_flags_bids_of s id m : bids_of (set_flags s id m) id = map (flag_with m) (bids_of s id).
Proof. exact (bids_of_set_flags_own s id m). Qed.
Lemma set_flags_bids_other s id m j : j <> id -> bids_of (set_flags s id m) j = bids_of s j.
Proof. intros Hj. apply (se_bids _ _ _ (frame_set_flags id s m j Hj)). Qed.
Lemma set_flags_mlen s id m : st_mlen (set_flags s id m) id = Z.of_nat (length m).
Proof. unfold set_flags. cbn [st_mlen with_mlen]. unfold upd. rewrite N.eqb_refl. reflexivity. Qed.
Lemma set_flags_mlen_other s id m j : j <> id -> st_mlen (set_flags s id m) j = st_mlen s j.
Proof. intros Hj. apply (se_mlen _ _ _ (frame_set_flags id s m j Hj)). Qed.

Lemma count_flagged m bs :
  NoDup m -> incl m (map b_id bs) -> NoDup (map b_id bs) ->
  length (filter b_matched (map (flag_with m) bs)) = length m.
Proof.
  intros NDm Hincl NDbs. rewrite filter_map_swap, map_length.
  exact (ListFacts.count_mem b_id bs m NDbs NDm Hincl).
Qed.

Theorem set_flags_count s id m :
  NoDup m -> incl m (map b_id (bids_of s id)) -> NoDup (map b_id (bids_of s id)) ->
  count_matched (st_bids (set_flags s id m)) id = Z.of_nat (length m)
  /\ st_mlen (set_flags s id m) id = count_matched (st_bids (set_flags s id m)) id.
Proof.
  intros NDm Hincl NDbs.
  assert (C : count_matched (st_bids (set_flags s id m)) id = Z.of_nat (length m)).
  { rewrite InvStaticBase.count_matched_of, set_flags_bids_of. f_equal. apply count_flagged; assumption. }
  split; [exact C|]. rewrite C. apply set_flags_mlen.
Qed.
Lemma set_flags_count_other s id m j :
  j <> id -> count_matched (st_bids (set_flags s id m)) j = count_matched (st_bids s) j.
Proof. intros Hj. rewrite !InvStaticBase.count_matched_of, set_flags_bids_other by exact Hj. reflexivity. Qed.

Definition spec_price (bs : list bid) (al : list allowed) (supply : Z) : Z :=
  match clearing_spec bs al supply with Some p => p | None => 0 end.

Definition closed_record (s : state) (a : auction) (mi : minfo) : auction :=
  if decision s a mi then extended s a mi
  else set_status (set_matched_price a (mi_price mi)) (settled_st a).

Lemma close_batch_state s orc a s' :
  find_auction s (a_id a) = Some a -> close_batch s orc a = Ok s' ->
  exists order mi,
    valid_order (bids_of s (a_id a)) (oracle_ids orc (a_id a)) = Some order /\
    calc_batch a (bids_of s (a_id a)) order (allowed_of s (a_id a)) = Some mi /\
    find_auction s' (a_id a) = Some (closed_record s a mi) /\
    a_matched_price (closed_record s a mi) = mi_price mi /\
    st_bids s' = st_bids (set_flags s (a_id a) (mi_matched mi)) /\
    st_mlen s' = st_mlen (set_flags s (a_id a) (mi_matched mi)).
Proof.
  intros F H. apply close_batch_iff in H. destruct H as (mi & (order & HV & HC) & H).
  exists order, mi. split; [exact HV|]. split; [exact HC|]. unfold closed_record.
  destruct (decision s a mi).
  - subst s'. split; [|repeat split].
    apply (find_after_put (set_flags s (a_id a) (mi_matched mi)) _ a (extended s a mi)); [reflexivity|reflexivity|exact F].
  - apply settle_gen_iff in H. destruct H as [_ ->].
    split; [exact (settle_state_find (set_flags s (a_id a) (mi_matched mi)) (set_matched_price a (mi_price mi)) mi true a F)|].
    repeat split.
Qed.

(* what the flags of the stored bids bs' of a batch auction say, mi being the result of the matching *)
Record flagged (bs' : list bid) (mi : minfo) : Prop := {
  fl_matched : forall b, In b bs' -> (b_matched b = true <-> In (b_id b) (mi_matched mi));
  fl_count : length (filter b_matched bs') = length (mi_matched mi);
  fl_price : forall b, In b bs' -> b_matched b = true -> mi_price mi <= b_price b;
  fl_alloc : forall u, 0 < mi_alloc mi u <-> exists b, In b bs' /\ b_bidder b = u /\ b_matched b = true;
  fl_none : mi_price mi = 0 <-> forall b, In b bs' -> b_matched b = false
}.

Section BatchFlags.
  Variables (a : auction) (bs : list bid) (ids : list N) (order : list bid) (al : list allowed) (mi : minfo).
  Hypothesis WF : book_wf bs al.
  Hypothesis HV : valid_order bs ids = Some order.
  Hypothesis Hs : 0 <= a_sell_amt a.
  Hypothesis HC : calc_batch a bs order al = Some mi.

  Lemma matched_iff_asg p : clearing_spec bs al (a_sell_amt a) = Some p -> forall b, In b bs ->
    (In (b_id b) (mi_matched mi) <-> exists m, In (b, m) (batch_asg order al p) /\ 0 < m).
  Proof.
    intros CS b Hb. destruct (valid_order_ids_nodup bs ids order HV) as (NDbs & _).
    destruct (batch_result_cases a bs ids order al mi WF HV Hs HC) as [(q & CS' & C)|(CS' & _)];
      rewrite CS in CS'; [injection CS' as <-|discriminate CS'].
    pose proof (af_in (cl_asg C)) as A1.
    rewrite (cl_matched C). unfold matched_ids. rewrite in_map_iff. split.
    - intros (x & Ex & Hx). apply filter_In in Hx. destruct Hx as [Hx Hpos]. apply Z.ltb_lt in Hpos.
      destruct (A1 x Hx) as (Hfb & _).
      assert (fst x = b) by (apply (ListFacts.NoDup_map_inj b_id bs); assumption).
      exists (snd x). split; [|exact Hpos]. subst b. destruct x; exact Hx.
    - intros (m & Hx & Hm). exists (b, m). split; [reflexivity|]. apply filter_In. split; [exact Hx|].
      apply Z.ltb_lt. exact Hm.
  Qed.

  Lemma matched_nil_iff : mi_matched mi = [] <-> forall b, In b bs -> ~ In (b_id b) (mi_matched mi).
  Proof.
    destruct (batch_matched_ids a bs ids order al mi HV HC) as (_ & Hincl).
    split; [intros -> b _ []|]. intros Hno. destruct (mi_matched mi) as [|i l] eqn:Em; [reflexivity|].
    exfalso. assert (Hi : In i (map b_id bs)) by (apply Hincl; left; reflexivity).
    apply in_map_iff in Hi. destruct Hi as (b & <- & Hb). apply (Hno b Hb). left. reflexivity.
  Qed.

  Theorem batch_flag_facts :
    mi_price mi = spec_price bs al (a_sell_amt a) /\
    mi_matched mi = match clearing_spec bs al (a_sell_amt a) with
                    | Some p => matched_ids (batch_asg order al p) | None => [] end /\
    NoDup (mi_matched mi) /\ incl (mi_matched mi) (map b_id bs) /\ NoDup (map b_id bs) /\
    (forall p, clearing_spec bs al (a_sell_amt a) = Some p -> forall b, In b bs ->
       (In (b_id b) (mi_matched mi) <-> exists m, In (b, m) (batch_asg order al p) /\ 0 < m)) /\
    (forall b, In b bs -> In (b_id b) (mi_matched mi) -> mi_price mi <= b_price b) /\
    (forall u, 0 < mi_alloc mi u <-> exists b, In b bs /\ b_bidder b = u /\ In (b_id b) (mi_matched mi)) /\
    (mi_price mi = 0 <-> mi_matched mi = []) /\
    (mi_matched mi = [] <-> forall b, In b bs -> ~ In (b_id b) (mi_matched mi)).
  Proof.
    destruct (batch_matched_ids a bs ids order al mi HV HC) as (NDm & Hincl).
    destruct (valid_order_ids_nodup bs ids order HV) as (NDbs & _).
    pose proof matched_iff_asg as Hiff. pose proof matched_nil_iff as Hempty. unfold spec_price.
    destruct (batch_result_cases a bs ids order al mi WF HV Hs HC) as [(p & CS & C)|(CS & U)]; rewrite CS in *.
    - (* the auction clears at p *)
      pose proof (cl_price C) as Ep. pose proof (cl_matched C) as Em. pose proof (cl_alloc C) as Ha.
      pose proof (cl_pos C) as Hpp. pose proof (cl_some C) as Hne. pose proof (cl_asg C) as F.
      pose proof (af_in F) as A1. pose proof (af_got F) as A2.
      specialize (Hiff p eq_refl).
      split; [exact Ep|]. split; [exact Em|]. split; [exact NDm|]. split; [exact Hincl|]. split; [exact NDbs|].
      split; [intros q Hq; injection Hq as <-; exact Hiff|]. split; [|split; [|split; [|exact Hempty]]].
      + intros b Hb Hi. apply (Hiff b Hb) in Hi. destruct Hi as (m & Hx & _). rewrite Ep.
        apply (A1 (b, m) Hx).
      + intros u. rewrite Ha, <- A2. unfold got. rewrite sumZ_pos_iff.
        2:{ intros x Hx. apply filter_In in Hx. apply (A1 x), Hx. }
        split.
        * intros (x & Hx & Hpos). unfold of_bidder in Hx. apply filter_In in Hx. destruct Hx as [Hx Hu].
          apply N.eqb_eq in Hu. destruct (A1 x Hx) as (Hfb & _). exists (fst x).
          split; [exact Hfb|]. split; [exact Hu|]. apply (Hiff _ Hfb). exists (snd x).
          split; [destruct x; exact Hx|exact Hpos].
        * intros (b & Hb & Hu & Hi). apply (Hiff b Hb) in Hi. destruct Hi as (m & Hx & Hm).
          exists (b, m). split; [|exact Hm]. unfold of_bidder. apply filter_In. split; [exact Hx|].
          apply N.eqb_eq. exact Hu.
      + rewrite Ep. split; [lia|]. intros Hn. contradiction.
    - (* nothing is matched *)
      pose proof (un_price U) as Ep. pose proof (un_matched U) as Em. pose proof (un_alloc U) as Ha.
      split; [exact Ep|]. split; [exact Em|]. split; [exact NDm|]. split; [exact Hincl|]. split; [exact NDbs|].
      split; [intros q Hq; discriminate Hq|]. split; [|split; [|split; [|exact Hempty]]].
      + intros b _ Hi. rewrite Em in Hi. destruct Hi.
      + intros u. rewrite Ha, Em. split; [lia|]. intros (b & _ & _ & []).
      + split; intros _; assumption.
  Qed.

  Lemma flagged_facts : flagged (map (flag_with (mi_matched mi)) bs) mi.
  Proof.
    destruct batch_flag_facts as (_ & _ & NDm & Hincl & NDbs & _ & Bprice & Balloc & Bzero & Bempty).
    constructor.
    - apply in_flagged. intros b0 _. exact (flag_with_matched _ b0).
    - apply count_flagged; assumption.
    - refine (in_flagged _ _ _ _). intros b0 Hb0 Hm. apply (flag_with_matched _ b0) in Hm. apply (Bprice b0 Hb0 Hm).
    - intros u. rewrite Balloc. split.
      + intros (b0 & Hb0 & Hu & Hi). exists (flag_with (mi_matched mi) b0).
        split; [apply in_map; exact Hb0|]. split; [exact Hu|]. apply flag_with_matched. exact Hi.
      + intros (b & Hb & Hu & Hm). revert b Hb Hu Hm. refine (in_flagged _ _ _ _). intros b0 Hb0 Hu Hm.
        exists b0. split; [exact Hb0|]. split; [exact Hu|]. apply (flag_with_matched _ b0). exact Hm.
    - rewrite Bzero, Bempty. split.
      + intros Hno. apply in_flagged. intros b0 Hb0. apply not_true_iff_false.
        rewrite (flag_with_matched _ b0). exact (Hno b0 Hb0).
      + intros Hno b0 Hb0 Hi. apply (flag_with_matched _ b0) in Hi.
        rewrite (Hno _ (in_map _ _ _ Hb0)) in Hi. discriminate Hi.
  Qed.

  (* flagged iff the bid got a positive amount in the sweep at the clearing price *)
  Lemma flagged_asg p : clearing_spec bs al (a_sell_amt a) = Some p ->
    forall b, In b (map (flag_with (mi_matched mi)) bs) ->
    (b_matched b = true <-> exists b0 m, In (b0, m) (batch_asg order al p) /\ 0 < m /\ b = flag_with (mi_matched mi) b0).
  Proof.
    intros CS. destruct (valid_order_ids_nodup bs ids order HV) as (NDbs & _).
    apply in_flagged. intros b0 Hb0. rewrite (flag_with_matched _ b0), (matched_iff_asg p CS b0 Hb0). split.
    - intros (m & Hx & Hm). exists b0, m. repeat split; assumption.
    - intros (b1 & m & Hx & Hm & E). exists m. split; [|exact Hm].
      assert (b1 = b0); [|subst; exact Hx].
      pose proof (af_in (batch_asg_facts bs al _ order p WF HV (wf_price_in bs al p WF (proj1 (clearing_spec_some _ _ _ _ CS))))) as A1.
      destruct (A1 _ Hx) as (Hb1 & _). cbn [fst] in Hb1.
      apply (ListFacts.NoDup_map_inj b_id bs); try assumption.
      apply (f_equal b_id) in E. exact (eq_sym E).
  Qed.
End BatchFlags.

Lemma sell_amount_set_matched pd b x : sell_amount pd (set_b_matched b x) = sell_amount pd b.
Proof. reflexivity. Qed.

Theorem place_bid_flag s u id bt price d amt s' :
  place_bid s u id bt price d amt = Ok s' ->
  exists a nb, find_auction s id = Some a /\ a_status a = Started /\ st_bids s' = st_bids s ++ [nb] /\
    b_auction nb = id /\ b_id nb = (st_bseq s id + 1)%N /\ b_bidder nb = u /\ b_type nb = bt /\
    b_price nb = price /\ b_denom nb = d /\ b_amt nb = amt /\
    match bt with
    | BFixed => a_type a = FixedPrice /\ b_matched nb = (0 <? sell_amount (a_pay_denom a) nb)
                /\ (d = a_pay_denom a \/ d = a_sell_denom a) /\ price = a_start_price a
    | BWorth => a_type a = Batch /\ b_matched nb = false /\ d = a_pay_denom a /\ a_min_price a <= price
    | BMany => a_type a = Batch /\ b_matched nb = false /\ d = a_sell_denom a /\ a_min_price a <= price
    end.
Proof.
  intros H. apply place_bid_iff in H. destruct H as (a & F & P & ->).
  pose proof (pl_price P) as G. pose proof (pl_valid P) as V.
  exists a, (stored_bid a (new_bid s u id bt price d amt)). split; [exact F|]. split; [exact (pl_started P)|]. split; [reflexivity|].
  (* the validation says which type of auction the bid is on; on a batch auction the price guard speaks *)
  unfold stored_bid, bid_valid in *. destruct bt; cbn [b_type new_bid] in V |- *; do 7 (split; [reflexivity|]).
  - destruct V as (T & Dn & Pr & _). split; [exact T|]. split; [reflexivity|]. split; [exact Dn|exact Pr].
  - destruct V as (T & Dn & _). rewrite T in G. cbn [atype_eqb andb] in G. apply Z.ltb_ge in G. repeat split; assumption.
  - destruct V as (T & Dn & _). rewrite T in G. cbn [atype_eqb andb] in G. apply Z.ltb_ge in G. repeat split; assumption.
Qed.

Lemma opt_match_spec {A} (eqb : A -> A -> bool) (f : option A) x :
  (forall x y, eqb x y = true <-> x = y) ->
  (opt_match eqb f x = true <-> forall y, f = Some y -> x = y).
Proof.
  intros Heq. destruct f as [y|]; cbn [opt_match].
  - rewrite Heq. split; [intros -> z Hz; congruence|intros H; apply H; reflexivity].
  - split; [intros _ y Hy; discriminate Hy|reflexivity].
Qed.

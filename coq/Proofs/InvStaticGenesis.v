(* The GENESIS operation preserves the static invariant InvS, with no hypothesis on the vesting queues: their
   import is the last phase, and InvS only needs every imported queue to belong to an existing auction, which
   import_vqs checks itself (when it fails, the operation leaves the state as it is).  The rest of the imported state is
   GenesisImport.imported_upto_vqs.  With InvStatic.v this gives InvS for every operation and every reachable state
   (InvS_step_all, InvS_run_all, InvS_reachable_all). *)
From Coq Require Import ZArith List Permutation.
From FR Require Import Types Genesis Model.
From FR.Proofs Require Import InvDefs GenesisImport GenesisInv InvStatic.
From FR.Proofs Require FrameFacts TxFacts ImportShape.
Import ListNotations.
Open Scope Z_scope.

Theorem InvS_state_same s s' : state_same s s' -> InvS s -> InvS s'.
Proof.
  intros H I. split.
  - exact (ids_seq_same s s' H (is_ids s I)).
  - exact (auctions_wf_same s s' H (is_auctions s I)).
  - exact (bids_wf_same s s' H (is_bids s I)).
  - exact (allowed_wf_same s s' H (is_allowed s I)).
  - exact (mlen_inv_same s s' H (is_mlen s I)).
  - exact (params_wf_same s s' H (is_params s I)).
  - exact (fresh_inv_same s s' H (is_fresh s I)).
Qed.

Lemma import_export_novq s :
  ids_seq s -> bids_wf s -> allowed_wf s -> mlen_inv s ->
  forall s', import s (export s) = Some s' ->
  state_same s (with_vqs s' (st_vqs s))
  /\ forall v, In v (st_vqs s') -> find_auction s (v_auction v) <> None.
Proof.
  intros Hids Hb Hal Hml s'. destruct (imported_upto_vqs s Hids Hb Hal Hml) as (Eau & Ek & Hsame).
  rewrite ImportShape.import_closed, Ek. cbn [andb].
  destruct (ImportShape.known _ (map v_auction _)) eqn:Ev; [|discriminate].
  intros E. injection E as <-. split; [exact Hsame|].
  intros v Hv. apply ImportShape.in_fold_put_vq in Hv. destruct Hv as [[]|Hv].
  rewrite <- (FrameFacts.find_auction_conv _ _ _ Eau). apply (proj1 (ImportShape.known_In _ _) Ev).
  apply in_map. exact Hv.
Qed.

Theorem InvS_genesis s : InvS s -> InvS (snd (step s OGenesis)).
Proof.
  intros I. cbn [step]. unfold genesis_roundtrip.
  destruct (import s (export s)) as [s'|] eqn:E; cbn [snd]; [|exact I].
  destruct (import_export_novq s (is_ids s I) (is_bids s I) (is_allowed s I) (is_mlen s I) s' E) as [Hsame Hv].
  pose proof (InvS_state_same _ _ Hsame I) as I2.
  replace s' with (with_vqs (with_vqs s' (st_vqs s)) (st_vqs s')) by (destruct s'; reflexivity).
  apply InvS_with_vqs; [exact I2|].
  rewrite Forall_forall. intros v Hv'. rewrite (ss_aseq _ _ Hsame).
  specialize (Hv v Hv'). destruct (find_auction s (v_auction v)) as [a|] eqn:F; [|congruence].
  exact (InvS_find_lt s _ a I F).
Qed.

Theorem InvS_genesis_vq s : InvS s -> vqs_wf s -> InvS (snd (step s OGenesis)).
Proof. intros I _. apply InvS_genesis, I. Qed.

Theorem InvS_step_all s o : InvS s -> InvS (snd (step s o)).
Proof.
  intros I. destruct o; try (apply InvS_step; [exact I|discriminate]). apply InvS_genesis, I.
Qed.

Theorem InvS_run_all : forall ops s, InvS s -> InvS (run s ops).
Proof. apply TxFacts.run_ind_all, InvS_step_all. Qed.

Corollary InvS_reachable_all bal now sw p ops :
  coins_ok (p_cfee p) None = true -> coins_ok (p_bfee p) None = true ->
  InvS (run (init_state bal now sw p) ops).
Proof. intros H1 H2. apply InvS_run_all, InvS_init; assumption. Qed.

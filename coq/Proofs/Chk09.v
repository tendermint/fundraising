(* Checker link for C09: the executable monitor Checkers.c09_ok holds of every transition the model makes from a
   state satisfying the invariant.  Its settlement conjunct (c09_settle_part: the instalments are the weight shares of
   what went into the vesting escrow) is read off ChkSettle.settle_view; its release conjunct (c09_release_part: exactly
   the due unreleased instalments are paid, once) off the release action of ChkSettle.block_view (release_facts).
   c09_live (a block fails while an instalment is due only when a listener vetoes) comes from InvAll.block_never_fails and so
   needs oracle_ok besides Inv; with c09_ok it is c09_all, the checker the driver evaluates. *)
From Coq Require Import ZArith NArith List Bool Arith Lia.
From FR Require Import Types Match Step Model Spec Checkers.
From FR.Proofs Require Import InvDefs EscrowBase FrameFacts BlockFacts BlockWalk VestingFacts HookBase Ledger LedgerCharges LedgerSettle.
From FR.Proofs Require Import ListFacts EqbFacts ChkSettle.
From FR.Proofs Require Import InvAll FixedFacts.
From FR.Proofs Require TxFacts DecFacts VestingInv GenesisImport LedgerVesting.
Import ListNotations.
Open Scope Z_scope.

Definition trans_of (s : state) (o : op) : trans :=
  let '(out, s') := step s o in
  {| t_pre := s; t_op := o; t_class := class_of out; t_xfers := st_xfers s'; t_trace := st_trace s';
     t_post := s';
     t_fault := match out, o with BlockErr c, OFaultBlock _ _ _ => N.eqb c E_FAULT | _, _ => false end;
     t_gen_valid := match out with GenOk v => v | _ => false end |}.

(* its fields, as those of model_trans (FixedFacts.model_trans_eq), over s itself *)
Lemma trans_of_eq s o :
  trans_of s o =
  let r := step s o in
  {| t_pre := s; t_op := o; t_class := class_of (fst r); t_xfers := st_xfers (snd r); t_trace := st_trace (snd r);
     t_post := snd r;
     t_fault := match fst r, o with BlockErr c, OFaultBlock _ _ _ => N.eqb c E_FAULT | _, _ => false end;
     t_gen_valid := match fst r with GenOk v => v | _ => false end |}.
Proof. unfold trans_of. destruct (step s o) as [out s']. reflexivity. Qed.

Lemma ghost_reset_xfers s : st_xfers (FixedFacts.ghost_reset s) = [].
Proof. reflexivity. Qed.

(* an auction that the transition of s by o settles, with the view of its settlement *)
Lemma settling_trans_of s o a a' :
  Inv s -> st_xfers s = [] -> In (a, a') (settling (trans_of s o)) ->
  exists mi wr, settle_view s (snd (step s o)) (st_xfers (snd (step s o))) a a' (FrameFacts.block_time o) (block_orc o) mi wr.
Proof.
  intros I X0 Hin. rewrite trans_of_eq in Hin. apply in_settling in Hin. cbn [t_pre t_post] in Hin.
  destruct Hin as (Ha & F' & St & Hst'). apply (step_settle_view s o _ a a' I); [rewrite X0; reflexivity|assumption..].
Qed.

Lemma sum_payouts_to_escrow from d us f f' r j d' :
  sum_xfers (payouts from d us f) (from_to f' (Escrow r j) d') = 0.
Proof. apply sum_xfers_not_to, LedgerVesting.Forall_payouts. discriminate. Qed.

Lemma sum_settle_xfers_pv s a mi wr :
  sum_xfers (settle_xfers s a mi wr) (from_to (Escrow Paying (a_id a)) (Escrow Vesting (a_id a)) (a_pay_denom a))
  = match a_scheds a with [] => 0 | _ => proceeds_of s a mi wr end.
Proof.
  unfold settle_xfers. rewrite !sum_xfers_app, !sum_xfers_send_xf, !sum_payouts_to_escrow.
  assert (E : sum_xfers (if wr then payouts (Escrow Paying (a_id a)) (a_pay_denom a) (mi_bidders mi) (mi_refund mi) else [])
                (from_to (Escrow Paying (a_id a)) (Escrow Vesting (a_id a)) (a_pay_denom a)) = 0).
  { destruct wr; [apply sum_payouts_to_escrow|reflexivity]. }
  rewrite E. unfold vest_dest, ind. cbn [addr_eqb role_eqb andb]. rewrite !N.eqb_refl.
  destruct (a_scheds a); cbn [addr_eqb role_eqb andb]; rewrite ?N.eqb_refl; cbn [andb]; lia.
Qed.

(* The two conjuncts of Checkers.c09_ok under names of their own, so that each has its theorem (C09_checker_settlement,
   C09_checker_release); they are copies of the text of Checkers.v and must be kept in step with it: c09_ok_parts, proved by
   reflexivity, is what fails when they are not.  The same holds of c16_vest_id, c16_settle_part, c16_vest_part (Chk16.v,
   c16_ok_parts) and of Chk11.bid_check (the `change` in c11_ok_model).  c09_release_part is also Checkers.c19_release_own. *)
Definition c09_settle_part (t : trans) : bool :=
  forallb (fun p =>
    let a := fst p in
    let id := a_id a in
    let proceeds_vest := sum_xfers (t_xfers t) (from_to (Escrow Paying id) (Escrow Vesting id) (a_pay_denom a)) in
    let proceeds_direct := sum_xfers (t_xfers t) (from_to (Escrow Paying id) (User (a_auctioneer a)) (a_pay_denom a)) in
    let new_vqs := vqs_of (t_post t) id in
    let bidders_refund := sumZ (map (refunded t id (a_pay_denom a)) (filter (fun u => negb (N.eqb u (a_auctioneer a))) users)) in
    match a_scheds a with
    | [] => (length new_vqs =? 0)%nat && status_eqb (a_status (snd p)) Finished && (proceeds_vest =? 0)
            && (st_bal (t_post t) (Escrow Paying id) (a_pay_denom a) =? 0)
    | vs =>
        status_eqb (a_status (snd p)) VestingS
        && zeqb_list (map v_amt new_vqs) (spec_split proceeds_vest (map s_weight vs) 0)
        && zeqb_list (map v_time new_vqs) (map s_time vs)
        && forallb (fun v => negb (v_released v) && N.eqb (v_auctioneer v) (a_auctioneer a) && N.eqb (v_denom v) (a_pay_denom a)
                             && (0 <=? v_amt v)) new_vqs
        && (sumZ (map v_amt new_vqs) =? proceeds_vest)
        && (st_bal (t_post t) (Escrow Paying id) (a_pay_denom a) =? 0)
        && (0 <=? bidders_refund + proceeds_direct)
    end) (settling t).

Definition c09_release_part (t : trans) : bool :=
  forallb (fun p =>
       let a := fst p in
       let id := a_id a in
       if status_eqb (a_status a) VestingS then
         let before := vqs_of (t_pre t) id in
         let after := vqs_of (t_post t) id in
         let due := if Checkers.is_block (t_op t) && oclass_eqb (t_class t) KBlockOk
                    then filter (fun v => negb (v_released v) && (v_time v <=? Checkers.block_time (t_op t))) before else [] in
         (length before =? length after)%nat
         && forallb (fun pr => let v := fst pr in let v' := snd pr in
               vq_eqb (set_v_released v (v_released v || existsb (fun x => v_time x =? v_time v) due)) v')
             (combine before after)
         && zeqb_list (map x_amt (filter (fun x => addr_eqb (x_from x) (Escrow Vesting id)) (t_xfers t)))
                      (filter (fun z => negb (z =? 0)) (map v_amt due))
         && forallb (fun x => negb (addr_eqb (x_from x) (Escrow Vesting id))
                              || (addr_eqb (x_to x) (User (a_auctioneer a)) && N.eqb (x_denom x) (a_pay_denom a))) (t_xfers t)
       else true) (paired t).

Lemma c09_ok_parts t : c09_ok t = c09_settle_part t && c09_release_part t.
Proof. reflexivity. Qed.

Lemma step_xfers_pos s o : st_xfers s = [] -> pos_xs (st_xfers (snd (step s o))).
Proof. intros X0. destruct (step_ledger_rel s o) as [xs [X _ Hp]]. rewrite X, X0. exact Hp. Qed.

Theorem c09_settle_trans s o : Inv s -> st_xfers s = [] -> c09_settle_part (trans_of s o) = true.
Proof.
  intros I X0. unfold c09_settle_part. apply forallb_forall. intros [a a'] Hin.
  destruct (settling_trans_of s o a a' I X0 Hin) as (mi & wr & V).
  pose proof (sv_proceeds V) as HR. set (R := proceeds_of s a mi wr) in *.
  pose proof (step_xfers_pos s o X0) as Pos.
  cbv zeta. cbn [fst snd]. unfold refunded.
  rewrite trans_of_eq. cbn [t_xfers t_post]. rewrite (sv_vqs V), (sv_sum V Paying (Escrow Vesting (a_id a))), sum_settle_xfers_pv,
    (sv_paying V), (sv_status V).
  fold R. unfold settled_st, new_vqs.
  pose proof (awf_scheds _ (EscrowBlock.Inv_find_wf s a I (sv_pre V))) as Wsc. unfold scheds_wf in Wsc.
  destruct (a_scheds a) as [|v vs] eqn:Es; [reflexivity|].
  destruct Wsc as [Wsc|Wsc]; [discriminate Wsc|].
  destruct (DecFacts.split_of_valid a R (v :: vs) _ _ Wsc HR) as (Hsum & Hamt & Hnn & Htm).
  pose proof (DecFacts.split_fields a R (v :: vs) R) as Hf.
  rewrite Hamt, Htm, !zeqb_list_refl, <- Hamt, Hsum, Z.eqb_refl. cbn [status_eqb andb].
  change (0 =? 0) with true. rewrite !andb_true_r.
  apply andb_true_iff. split.
  - (* the fields of the new instalments *)
    apply forallb_forall. intros x Hx. rewrite Forall_forall in Hnn, Hf.
    destruct (Hf x Hx) as (Hr & _ & Hau & Hd).
    rewrite Hr, Hau, Hd, !N.eqb_refl. cbn [negb andb]. apply Z.leb_le, Hnn, Hx.
  - (* refunds and direct proceeds are sums of transfers, whose amounts are positive *)
    apply Z.leb_le. apply Z.add_nonneg_nonneg; [|apply sum_xfers_nonneg, Pos].
    apply sumZ_nonneg. intros z Hz. apply in_map_iff in Hz. destruct Hz as (u & <- & _).
    apply sum_xfers_nonneg, Pos.
Qed.

(* a vesting auction in a successful block: its queue and what leaves its vesting escrow *)
Lemma release_facts s t orc s' a :
  Inv s -> begin_block s t orc = Ok s' -> In a (st_auctions s) -> a_status a = VestingS ->
  vqs_of s' (a_id a) = map (release_vq (a_id a) t) (vqs_of s (a_id a))
  /\ filter (fun x => addr_eqb (x_from x) (Escrow Vesting (a_id a))) (st_xfers s')
     = filter (fun x => addr_eqb (x_from x) (Escrow Vesting (a_id a))) (st_xfers s) ++ rel_xfers a t (vqs_of s (a_id a)).
Proof.
  intros I H Ha St. destruct (block_view_holds s t orc s' a I H Ha) as (x & V).
  pose proof (chosen_by_status _ _ _ _ _ (bv_chosen V)) as Ex. rewrite St in Ex. subst x.
  split; [exact (bv_vqs V)|].
  rewrite (bv_local V _ (from_src Vesting (a_id a))). cbn [act_xfers]. f_equal.
  apply rel_xfers_vout.
Qed.

Lemma set_released_eta v : set_v_released v (v_released v) = v.
Proof. destruct v; reflexivity. Qed.

Lemma release_vq_as_set id t v : release_vq id t v = set_v_released v (v_released (release_vq id t v)).
Proof.
  unfold release_vq. destruct (N.eqb (v_auction v) id && vq_due t v); [reflexivity|]. symmetry. apply set_released_eta.
Qed.

Definition due_at (t : Z) (vs : list vq) : list vq := filter (fun v => negb (v_released v) && (v_time v <=? t)) vs.
Lemma due_at_eq t vs : due_at t vs = due_of t vs.
Proof. unfold due_at, due_of. apply filter_ext. intros v. unfold vq_due. apply andb_comm. Qed.

Definition release_conj (a : auction) (before after due : list vq) (xs : list xfer) : bool :=
  (length before =? length after)%nat
  && forallb (fun pr => let v := fst pr in let v' := snd pr in
        vq_eqb (set_v_released v (v_released v || existsb (fun x => v_time x =? v_time v) due)) v')
      (combine before after)
  && zeqb_list (map x_amt (filter (fun x => addr_eqb (x_from x) (Escrow Vesting (a_id a))) xs))
               (filter (fun z => negb (z =? 0)) (map v_amt due))
  && forallb (fun x => negb (addr_eqb (x_from x) (Escrow Vesting (a_id a)))
                       || (addr_eqb (x_to x) (User (a_auctioneer a)) && N.eqb (x_denom x) (a_pay_denom a))) xs.

Lemma release_active_ok s a t xs :
  Inv s -> In a (st_auctions s) ->
  filter (fun x => addr_eqb (x_from x) (Escrow Vesting (a_id a))) xs = rel_xfers a t (vqs_of s (a_id a)) ->
  let before := vqs_of s (a_id a) in
  release_conj a before (map (release_vq (a_id a) t) before) (due_at t before) xs = true.
Proof.
  intros I Ha Ex before. pose proof (InvAll.Inv_find_in s a I Ha) as Fa. unfold release_conj.
  apply andb_true_iff. split; [apply andb_true_iff; split; [apply andb_true_iff; split|]|].
  - rewrite map_length. apply Nat.eqb_refl.
  - apply forallb_combine_map. intros v Hv. cbv zeta. cbn [fst snd].
    rewrite (release_vq_as_set (a_id a) t v), release_vq_flag, (vqs_of_auction _ _ _ Hv), N.eqb_refl. cbn [andb].
    assert (Eb2 : v_released v || existsb (fun x => v_time x =? v_time v) (due_at t before)
                  = v_released v || (v_time v <=? t)).
    { destruct (v_released v) eqn:Rv; cbn [orb]; [reflexivity|].
      apply Bool.eq_true_iff_eq. rewrite existsb_exists. split.
      - intros (x & Hx & Et). apply filter_In in Hx. destruct Hx as [_ Hx]. apply andb_true_iff in Hx.
        apply Z.eqb_eq in Et. rewrite <- Et. apply Hx.
      - intros Tv. exists v. split; [|apply Z.eqb_refl].
        apply filter_In. rewrite Rv, Tv. split; [exact Hv|reflexivity]. }
    rewrite Eb2. apply vq_eqb_refl.
  - rewrite Ex. unfold rel_xfers, paid_of. rewrite map_map. cbn [xfer_of x_amt].
    rewrite filter_map_swap, due_at_eq. apply zeqb_list_refl.
  - apply forallb_forall. intros x Hx.
    destruct (addr_eqb (x_from x) (Escrow Vesting (a_id a))) eqn:E; cbn [negb orb]; [|reflexivity].
    assert (Hin : In x (rel_xfers a t (vqs_of s (a_id a)))) by (rewrite <- Ex; apply filter_In; auto).
    unfold rel_xfers in Hin. apply in_map_iff in Hin. destruct Hin as (v & <- & Hv). cbn [xfer_of x_to x_denom].
    rewrite addr_eqb_refl. cbn [andb]. apply N.eqb_eq.
    unfold paid_of, due_of in Hv.
    apply filter_In in Hv. destruct Hv as [Hv _].
    apply filter_In in Hv. destruct Hv as [Hv _].
    exact (VestingInv.vo_denom (VestingInv.vqs_wf_own s _ a v (inv_vqs _ I) Fa Hv)).
Qed.

Lemma release_idle_ok a before xs :
  filter (fun x => addr_eqb (x_from x) (Escrow Vesting (a_id a))) xs = [] -> release_conj a before before [] xs = true.
Proof.
  intros Ex. unfold release_conj. rewrite Ex, Nat.eqb_refl. cbn [map filter andb].
  rewrite (zeqb_list_refl []), andb_true_r.
  apply andb_true_iff. split.
  - rewrite <- (map_id before) at 2. apply forallb_combine_map. intros v _. cbv zeta. cbn [fst snd existsb].
    rewrite orb_false_r, set_released_eta. apply vq_eqb_refl.
  - apply forallb_forall. intros x Hx. rewrite (proj1 (filter_nil_iff _ _) Ex x Hx). reflexivity.
Qed.

Lemma nonblock_no_vout s o id :
  Inv s -> FrameFacts.is_block o = false -> st_xfers s = [] ->
  filter (fun x => addr_eqb (x_from x) (Escrow Vesting id)) (st_xfers (snd (step s o))) = [].
Proof.
  intros I B X0.
  assert (G : o <> OGenesis -> filter (fun x => addr_eqb (x_from x) (Escrow Vesting id)) (st_xfers (snd (step s o))) = []).
  { intros Hg. destruct (accepted (fst (step s o))) eqn:Ha.
    - apply accepted_iff in Ha. pose proof (lb_xfers _ _ _ (step_xfers_spec s o)) as X.
      rewrite (step_xfers_accepted s o I Ha), X0 in X. cbn [app] in X. rewrite X.
      pose proof (LedgerVesting.tx_xfers_plain s o) as Pl. rewrite Forall_forall in Pl.
      apply filter_nil_iff. intros x Hx. exact (proj2 (Pl x Hx id)).
    - rewrite (LedgerCharges.step_nonblock_not_accepted s o B), X0; [reflexivity|].
      intros E. rewrite E in Ha. discriminate Ha. }
  destruct o as [m|a l|a u max|t orc|t orc k|from to d amt|ls|]; try (apply G; discriminate).
  destruct (GenesisImport.genesis_step s I) as (s' & Hs & SS). rewrite Hs. cbn [snd].
  rewrite (GenesisImport.ss_xfers _ _ SS), X0. reflexivity.
Qed.

Lemma nonblock_vqs_of s o id : Inv s -> FrameFacts.is_block o = false -> vqs_of (snd (step s o)) id = vqs_of s id.
Proof.
  intros I B. destruct (op_eq_genesis_dec o) as [->|Hg].
  - destruct (GenesisImport.genesis_step s I) as (s' & Hs & SS). rewrite Hs. cbn [snd].
    apply (GenesisImport.ss_vqs_of _ _ SS).
  - (* no case of tx_shape writes the vesting queues *)
    unfold vqs_of. rewrite (TxFacts.tx_vqs _ _ _ _ (TxFacts.step_shape s o B Hg)). reflexivity.
Qed.

Theorem c09_release_trans s o : Inv s -> st_xfers s = [] -> c09_release_part (trans_of s o) = true.
Proof.
  intros I X0. unfold c09_release_part. apply forallb_forall. intros [a a'] Hp.
  rewrite trans_of_eq in Hp |- *. apply in_paired in Hp. cbn [t_pre t_post] in Hp.
  destruct Hp as [Ha F']. cbv zeta. cbn [fst snd t_pre t_post t_op t_class t_xfers].
  destruct (status_eqb (a_status a) VestingS) eqn:St; [|reflexivity]. apply status_eqb_eq in St.
  (* Checkers.is_block and Checkers.block_time are FrameFacts.is_block and FrameFacts.block_time, by conversion *)
  destruct (Checkers.is_block o) eqn:B.
  - destruct (step_block s o B) as [[K1 K2]|[(c & K1) (tr & E)]].
    + rewrite K1. cbn [class_of oclass_eqb andb].
      destruct (release_facts s _ _ _ a I K2 Ha St) as [V X]. rewrite X0 in X. cbn [filter app] in X.
      rewrite V. exact (release_active_ok s a (FrameFacts.block_time o) _ I Ha X).
    + rewrite K1, class_of_err, E. cbn [andb].
      apply (release_idle_ok a (vqs_of s (a_id a)) (st_xfers s)). rewrite X0. reflexivity.
  - cbn [andb]. rewrite (nonblock_vqs_of s o (a_id a) I B). apply release_idle_ok. apply nonblock_no_vout; assumption.
Qed.

Theorem c09_ok_trans s o : Inv s -> st_xfers s = [] -> c09_ok (trans_of s o) = true.
Proof. intros I X0. rewrite c09_ok_parts, (c09_settle_trans s o I X0), (c09_release_trans s o I X0). reflexivity. Qed.

Lemma c09_ok_pre s o : c09_ok (model_trans s o) = c09_ok (trans_of (FixedFacts.ghost_reset s) o).
Proof.
  (* the two transitions differ in t_pre only (s, resp. s with its logs emptied), of which the checker reads no log *)
  rewrite FixedFacts.model_trans_eq, trans_of_eq. reflexivity.
Qed.

Theorem c09_ok_model s o : Inv s -> c09_ok (model_trans s o) = true.
Proof.
  intros I. rewrite c09_ok_pre. apply c09_ok_trans; [apply FixedFacts.Inv_ghost_reset, I|reflexivity].
Qed.

Theorem c09_live_model s o : Inv s -> oracle_ok s o -> c09_live (model_trans s o) = true.
Proof.
  intros I Ho. rewrite model_trans_eq. cbv zeta. unfold c09_live. cbn [t_op t_class t_pre].
  destruct o as [m|id l|id u max|t orc|t orc k|from to d amt|ls|]; try reflexivity.
  destruct (no_veto s H_BeforeAllocated) eqn:Hnv; [|destruct (class_of _); reflexivity].
  assert (Ho' : oracle_ok (ghost_reset s) (OBlock t orc)) by exact Ho.
  rewrite (proj1 (block_never_fails (ghost_reset s) t orc (Inv_ghost_reset s I) Hnv Ho')). reflexivity.
Qed.

Theorem c09_all_model s o : Inv s -> oracle_ok s o -> c09_all (model_trans s o) = true.
Proof.
  intros I Ho. unfold c09_all. rewrite (c09_ok_model s o I), (c09_live_model s o I Ho). reflexivity.
Qed.

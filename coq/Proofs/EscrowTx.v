(* Transactions, API calls and plain sends: from the state each leaves (TxFacts.tx_shape), a non-negative bank,
   the remainder invariant J6 and the exact change of every escrow excess (C01).  The escrow invariant J8 says
   that no excess is negative, so it follows from the last. *)
From Coq Require Import ZArith NArith List Bool Lia.
From FR Require Import Types Bank Match Step Model.
From FR Require Checkers.
From FR.Proofs Require Import ResFacts InvDefs HookFacts FrameFacts TxFacts BlockFacts BlockWalk InvStaticBase.
From FR.Proofs Require EqbFacts ListFacts DecFacts InvStaticUpd Ledger LedgerCharges.
From FR.Proofs Require Import EscrowBase ExcessDefs.
Import ListNotations.
Open Scope Z_scope.

Definition bal_ok (s : state) : Prop := forall x d, 0 <= st_bal s x d.

Lemma net_user_send u t d a r j d' :
  Checkers.net (Ledger.send_xf (User u) t d a) (Escrow r j) d' = ind (addr_eqb (Escrow r j) t && N.eqb d' d) a.
Proof.
  unfold Ledger.send_xf. destruct (a =? 0) eqn:E0.
  - apply Z.eqb_eq in E0. subst a.
    unfold ind. destruct (_ && _); reflexivity.
  - rewrite Ledger.net_cons, Ledger.net_nil. cbn [Ledger.mkx x_from x_to x_denom x_amt addr_eqb andb].
    rewrite (EqbFacts.addr_eqb_sym t), (N.eqb_sym d). unfold ind. destruct (_ && _); lia.
Qed.

Lemma net_user_pool u cs r j d : Checkers.net (Ledger.coin_xfers (User u) Pool cs) (Escrow r j) d = 0.
Proof.
  unfold Ledger.coin_xfers. induction cs as [|[d0 a] cs IH]; cbn [flat_map fst snd]; [reflexivity|].
  rewrite Ledger.net_app, IH, net_user_send. reflexivity.
Qed.

Lemma escrow_inv_intro s : bal_ok s -> (forall r id d, owed s r id d <= st_bal s (Escrow r id) d) -> escrow_inv s.
Proof. intros; split; assumption. Qed.

Lemma escrow_inv_excess s : escrow_inv s <-> bal_ok s /\ forall r id d, 0 <= excess s r id d.
Proof.
  unfold escrow_inv, excess. split; intros [B E]; (split; [exact B|]); intros r id d; specialize (E r id d); lia.
Qed.

Lemma Inv_bal_ok s : Inv s -> bal_ok s.
Proof. intros I. exact (proj1 (inv_escrow _ I)). Qed.

Lemma escrow_of_exc s s' (dep : role -> N -> N -> Z) :
  escrow_inv s -> bal_ok s' -> (forall r id d, 0 <= dep r id d) ->
  (forall r id d, excess s' r id d = if sweepsP s s' r id d then 0 else excess s r id d + dep r id d) ->
  escrow_inv s'.
Proof.
  intros E B Hd X. apply escrow_inv_excess.
  apply escrow_inv_excess in E. destruct E as [_ E].
  split; [exact B|]. intros r id d. rewrite (X r id d).
  specialize (E r id d). specialize (Hd r id d).
  destruct (sweepsP s s' r id d); lia.
Qed.

(* what every operation other than a plain send does to the books: no balance negative, J6, every escrow excess
   kept or swept *)
Record books_kept (s s' : state) : Prop := {
  bk_bal : bal_ok s';
  bk_remaining : remaining_inv s';
  bk_exc : exc_rel s s' }.

Lemma books_kept_escrow s s' : escrow_inv s -> books_kept s s' -> escrow_inv s'.
Proof.
  intros E K. apply (escrow_of_exc s s' (fun _ _ _ => 0) E (bk_bal s s' K)); [intros; lia|].
  intros r id d. rewrite Z.add_0_r. apply (bk_exc s s' K).
Qed.

Lemma remaining_inv_ext s s' :
  st_auctions s' = st_auctions s -> st_bids s' = st_bids s -> remaining_inv s -> remaining_inv s'.
Proof.
  intros Ha Hb R a Hin Hty. rewrite Ha in Hin. unfold bids_of.
  rewrite Hb. apply R; assumption.
Qed.

(* EscrowBase.owed_none under a second name *)
Lemma owed_nonneg_none s r id d : find_auction s id = None -> owed s r id d = 0.
Proof. apply owed_none. Qed.

Lemma books_kept_ext s s' :
  st_auctions s' = st_auctions s -> st_bids s' = st_bids s -> st_vqs s' = st_vqs s -> st_bal s' = st_bal s ->
  Inv s -> books_kept s s'.
Proof.
  intros Ha Hb Hv Hbal I. split.
  - (* bk_bal *) intros x d. rewrite Hbal. apply (Inv_bal_ok s I).
  - (* bk_remaining *) apply (remaining_inv_ext s s' Ha Hb), (inv_remaining _ I).
  - (* bk_exc *) apply exc_rel_ext; assumption.
Qed.

Lemma bids_of_app s l id :
  bids_of (with_bids s (st_bids s ++ l)) id = bids_of s id ++ filter (fun b => N.eqb (b_auction b) id) l.
Proof. unfold bids_of. cbn [st_bids with_bids]. apply filter_app. Qed.

(* the books of the other auctions are kept by the frame; of the target's, J6 only speaks if it is a fixed price
   auction *)
Lemma books_kept_frame id s s' a' :
  remaining_inv s -> frame id s s' -> find_auction s' id = Some a' -> bal_ok s' -> ids_ok s' ->
  (a_type a' = FixedPrice ->
     if status_eqb (a_status a') Cancelled then a_remaining a' = 0
     else a_remaining a' = a_sell_amt a' - sumZ (map (sell_amount (a_pay_denom a')) (bids_of s' id))) ->
  (forall r d, excess s' r id d = if sweepsP s s' r id d then 0 else excess s r id d) ->
  books_kept s s'.
Proof.
  intros R F Fa' B OK Hrem Hexc. split; [exact B| |exact (exc_rel_by_frame id s s' F Hexc)].
  intros a Hin Hty. pose proof (ids_ok_find s' a OK Hin) as Fa.
  destruct (N.eq_dec (a_id a) id) as [E|E].
  - rewrite E in Fa |- *. rewrite Fa' in Fa.
    injection Fa as <-. exact (Hrem Hty).
  - pose proof (F _ E) as Sl. rewrite (se_bids _ _ _ Sl). rewrite (se_auction _ _ _ Sl) in Fa.
    apply R; [apply (find_auction_some _ _ _ Fa)|exact Hty].
Qed.

Lemma ids_ok_put s s' a :
  ids_ok s -> st_auctions s' = st_auctions (put_auction s a) -> st_aseq s' = st_aseq s -> ids_ok s'.
Proof. intros OK Ha Hq. apply (ids_ok_same s); [rewrite Ha; apply map_id_put|exact Hq|exact OK]. Qed.

Lemma is_open_new st start now : st = (if start <=? now then Started else StandBy) -> is_open st = true.
Proof. intros ->. destruct (start <=? now); reflexivity. Qed.

(* what a fee and a reservation paid by a user leave on an escrow account *)
Lemma esc_after_user_xf b u cs t d a r j d' :
  VestingFacts.apply_xfers b (Ledger.coin_xfers (User u) Pool cs ++ Ledger.send_xf (User u) t d a) (Escrow r j) d'
  = b (Escrow r j) d' + ind (addr_eqb (Escrow r j) t && N.eqb d' d) a.
Proof. rewrite Ledger.apply_xfers_net, Ledger.net_app, net_user_pool, net_user_send. lia. Qed.

(* both create messages: the fee, the deposit of the coins on sale, the new record *)
Lemma create_kept s k1 k2 args a :
  Inv s -> a_id a = st_aseq s -> is_open (a_status a) = true ->
  (a_type a = FixedPrice -> a_remaining a = a_sell_amt a) ->
  let s' := create_post s (create_xf s (a_auctioneer a) (a_sell_denom a) (a_sell_amt a)) k1 k2 args a in
  Ledger.pays (st_bal s) (create_xf s (a_auctioneer a) (a_sell_denom a) (a_sell_amt a)) ->
  frame (st_aseq s) s s' -> books_kept s s'.
Proof.
  intros I Hid Hopen Hrem sF Hp F. set (id := st_aseq s) in *.
  assert (Hauc : st_auctions sF = st_auctions s ++ [a]) by reflexivity.
  assert (HbF : forall j, bids_of sF j = bids_of s j) by reflexivity.
  assert (HvF : vqs_of sF id = vqs_of s id) by reflexivity.
  assert (Hfresh : find_auction s id = None).
  { apply ids_ok_fresh; [apply ids_seq_ids_ok, (inv_ids _ I)|unfold id; lia]. }
  pose proof (fresh_bids s id (inv_fresh _ I) (N.le_refl _)) as Hnob.
  pose proof (fresh_vqs s id (inv_fresh _ I) (N.le_refl _)) as Hnov.
  assert (FaF : find_auction sF id = Some a).
  { rewrite (find_auction_conv_app s sF a id Hauc), Hfresh, Hid, N.eqb_refl. reflexivity. }
  apply (books_kept_frame id s sF a (inv_remaining _ I) F FaF).
  - exact (Ledger.pays_nonneg _ _ (Inv_bal_ok s I) Hp).
  - apply (ids_ok_create s sF a Hauc Hid); [reflexivity|apply ids_seq_ids_ok, (inv_ids _ I)].
  - intros Hty. rewrite HbF, Hnob, (Hrem Hty).
    assert (Hc : status_eqb (a_status a) Cancelled = false) by (destruct (a_status a); try reflexivity; discriminate Hopen).
    rewrite Hc. cbn [map].
    change (sumZ []) with 0. lia.
  - intros r d.
    rewrite (sweepsP_none _ _ _ _ _ Hfresh). unfold excess.
    rewrite (owed_none _ _ _ _ Hfresh), (owed_some sF r id d a FaF), HbF, HvF, Hnob, Hnov, Hopen. cbn [map filter].
    change (st_bal sF (Escrow r id) d) with
      (VestingFacts.apply_xfers (st_bal s) (create_xf s (a_auctioneer a) (a_sell_denom a) (a_sell_amt a)) (Escrow r id) d).
    unfold create_xf. rewrite esc_after_user_xf, esc_eqb, N.eqb_refl, !andb_true_r.
    change (sumZ []) with 0.
    destruct r; cbn [role_eqb andb ind]; [|destruct (_ && _); lia..].
    destruct (N.eqb d (a_sell_denom a)); cbn [ind]; lia.
Qed.

Lemma cancel_kept s u up id a :
  Inv s -> find_auction s id = Some a -> a_status a = StandBy -> Ledger.pays (st_bal s) (cancel_xf s id a) ->
  frame id s (cancel_post s u up id a) -> books_kept s (cancel_post s u up id a).
Proof.
  intros I Fa E0 Hp F. set (s' := cancel_post s u up id a) in *.
  destruct (find_auction_some _ _ _ Fa) as [Hin Hid]. subst id.
  pose proof (cancel_post_find s u up (a_id a) a Fa) as Hfind. fold s' in Hfind.
  assert (Hst : a_status (cancel_of a) = Cancelled) by (unfold cancel_of; destruct (a_type a); reflexivity).
  apply (books_kept_frame (a_id a) s s' _ (inv_remaining _ I) F Hfind).
  - exact (Ledger.pays_nonneg _ _ (Inv_bal_ok s I) Hp).
  - apply (ids_ok_put s _ (cancel_of a)); [apply ids_seq_ids_ok, (inv_ids _ I)| |]; reflexivity.
  - intros Hty. rewrite Hst. cbn [status_eqb].
    unfold cancel_of in *. destruct (a_type a) eqn:Ety; cbn [a_type set_status set_remaining] in Hty; [reflexivity|congruence].
  - intros r d.
    rewrite (sweepsP_some _ _ r (a_id a) d a _ Fa Hfind), Hst, E0.
    unfold excess. rewrite (owed_some _ r (a_id a) d _ Hfind), (owed_some _ r (a_id a) d a Fa), Hst, E0.
    change (st_bal s' (Escrow r (a_id a)) d)
      with (VestingFacts.apply_xfers (st_bal s) (cancel_xf s (a_id a) a) (Escrow r (a_id a)) d).
    unfold cancel_xf. rewrite Ledger.apply_xfers_net, Ledger.net_send_xf. cbn [addr_eqb].
    cbn [is_open status_eqb orb negb andb ind]. rewrite !andb_false_r, N.eqb_refl, !andb_true_r.
    destruct r; cbn [role_eqb andb ind]; [|lia|lia].
    rewrite (N.eqb_sym (a_sell_denom a) d). destruct (N.eqb d (a_sell_denom a)) eqn:Ed; cbn [ind]; [|lia].
    apply N.eqb_eq in Ed. subst d. lia.
Qed.

Lemma pay_amount_flag pd b m : pay_amount pd (set_b_matched b m) = pay_amount pd b. Proof. reflexivity. Qed.
Lemma sell_amount_flag pd b m : sell_amount pd (set_b_matched b m) = sell_amount pd b. Proof. reflexivity. Qed.

Lemma bid_valid_type s a b :
  bid_valid s a b -> match b_type b with BFixed => a_type a = FixedPrice | _ => a_type a = Batch end.
Proof. unfold bid_valid. destruct (b_type b); intros H; apply H. Qed.

(* whatever the type of the bid: what it is worth in the paying coin goes into the paying escrow; only a fixed price
   bid touches the record *)
Lemma place_kept s u id bt price d amt a :
  Inv s -> find_auction s id = Some a -> a_status a = Started ->
  let b0 := new_bid s u id bt price d amt in
  bid_valid s a b0 -> Ledger.pays (st_bal s) (bid_xf s a b0) ->
  frame id s (place_post s a b0) -> books_kept s (place_post s a b0).
Proof.
  intros I Fa St b0 V Hp F. set (s' := place_post s a b0) in *.
  destruct (find_auction_some _ _ _ Fa) as [Hin Hid]. subst id.
  set (pd := a_pay_denom a) in *.
  pose proof (bid_valid_type _ _ _ V) as Hty. change (b_type b0) with bt in Hty.
  (* the state is read off place_post: the bids with the stored bid appended, the record place_record a b0, whose
     remaining amount alone differs from that of a, the bank with bid_xf replayed *)
  set (nb := stored_bid a b0). set (a' := place_record a b0).
  assert (Hpay : pay_amount pd nb = pay_amount pd b0) by reflexivity.
  assert (Hsell : sell_amount pd nb = sell_amount pd b0) by reflexivity.
  assert (Hbo : bids_of s' (a_id a) = bids_of s (a_id a) ++ [nb]).
  { unfold bids_of. change (st_bids s') with (st_bids s ++ [nb]). rewrite filter_app. cbn [filter].
    change (b_auction nb) with (a_id a). rewrite N.eqb_refl. reflexivity. }
  assert (Hvo : vqs_of s' (a_id a) = vqs_of s (a_id a)) by reflexivity.
  pose proof (place_post_find s a b0 Fa) as Fa'. fold s' a' in Fa'.
  assert (Hrec : a_status a' = Started /\ a_sell_denom a' = a_sell_denom a /\ a_sell_amt a' = a_sell_amt a
                 /\ a_pay_denom a' = pd /\ a_type a' = a_type a) by (repeat split; exact St).
  destruct Hrec as (Hst' & Hsd' & Hsa' & Hpd' & Hty').
  assert (Hrem' : a_type a = FixedPrice -> a_remaining a' = a_remaining a - sell_amount pd b0).
  { intros T. unfold a', place_record, bid_takes. change (b_type b0) with bt. destruct bt; [reflexivity|congruence..]. }
  assert (Hbal : st_bal s' = VestingFacts.apply_xfers (st_bal s) (bid_xf s a b0)) by reflexivity.
  apply (books_kept_frame (a_id a) s s' a' (inv_remaining _ I) F Fa').
  - intros x d'. rewrite Hbal. exact (Ledger.pays_nonneg _ _ (Inv_bal_ok s I) Hp x d').
  - exact (ids_ok_same s s' (place_post_ids s a b0) eq_refl (ids_seq_ids_ok _ (inv_ids _ I))).
  - intros Hxt. rewrite Hst'. cbn [status_eqb].
    rewrite Hbo, Hsa', Hpd', ListFacts.sumZ_map_snoc, Hsell.
    rewrite Hty' in Hxt. rewrite (Hrem' Hxt).
    pose proof (inv_remaining _ I a Hin Hxt) as R.
    rewrite St in R. cbn [status_eqb] in R.
    fold pd in R. lia.
  - intros r d'.
    rewrite (sweepsP_some _ _ r (a_id a) d' a a' Fa Fa'), Hst', St.
    unfold excess. rewrite Hbal, (bid_xf_pay _ _ _ V), esc_after_user_xf.
    rewrite esc_eqb, N.eqb_refl, andb_true_r, (owed_some _ r (a_id a) d' a' Fa'), (owed_some _ r (a_id a) d' a Fa).
    rewrite Hbo, Hvo, Hst', Hsd', Hsa', Hpd', St. fold pd.
    cbn [is_open status_eqb orb negb andb]. rewrite !andb_false_r.
    destruct r; cbn [role_eqb andb ind]; [lia| |lia].
    rewrite !andb_true_r. destruct (N.eqb d' pd); cbn [ind]; [|lia].
    rewrite ListFacts.sumZ_map_snoc, Hpay. lia.
Qed.

Lemma sum_replace (f : bid -> Z) (b b' : bid) : forall l,
  NoDup (map b_id l) -> In b l ->
  sumZ (map f (map (fun x => if N.eqb (b_id x) (b_id b) then b' else x) l)) = sumZ (map f l) - f b + f b'.
Proof.
  induction l as [|x r IH]; intros Hnd Hin; [contradiction|].
  cbn [map] in *. rewrite !ListFacts.sumZ_cons. inversion Hnd as [|? ? Hnotin Hnd']; subst.
  destruct Hin as [->|Hin].
  - rewrite N.eqb_refl, (map_ext_in _ (fun y => y) r), map_id; [lia|].
    intros y Hy. destruct (N.eqb (b_id y) (b_id b)) eqn:Ey; [|reflexivity].
    apply N.eqb_eq in Ey. exfalso. apply Hnotin.
    rewrite <- Ey. now apply in_map.
  - destruct (N.eqb (b_id x) (b_id b)) eqn:Ex.
    + apply N.eqb_eq in Ex. exfalso.
      apply Hnotin. rewrite Ex. now apply in_map.
    + rewrite IH by assumption. lia.
Qed.

(* the increase of what the bid is worth in the paying coin is sent after it (LedgerCharges.modify_xf_inv) *)
Lemma modify_kept s u id bid_id a b price amt :
  Inv s -> find_auction s id = Some a -> a_status a = Started -> a_type a = Batch -> find_bid s id bid_id = Some b ->
  b_price b <= price /\ b_amt b <= amt ->
  let s' := modify_post s u id bid_id a b price (b_denom b) amt in
  Ledger.pays (st_bal s) (modify_xf u id a b price (b_denom b) amt) -> frame id s s' -> books_kept s s'.
Proof.
  intros I Fa St Ty Fb [Hpl Ham] s' Hp F.
  destruct (find_auction_some _ _ _ Fa) as [Hin Hid]. subst id.
  destruct (find_bid_some _ _ _ _ Fb) as (Hbin & Hba & Hbi).
  destruct (inv_bids _ I) as [Hbw Hbids]. rewrite Forall_forall in Hbw.
  pose proof (bwf_price _ _ (Hbw b Hbin)) as Wp. pose proof (bwf_amt _ _ (Hbw b Hbin)) as Wa.
  set (pd := a_pay_denom a) in *. set (b' := set_b_terms b price amt) in *.
  pose proof (DecFacts.pay_amount_mono pd b price amt (conj (Z.lt_le_incl _ _ Wp) Hpl) (conj (Z.lt_le_incl _ _ Wa) Ham)) as Hmono.
  fold b' in Hmono.
  assert (Hbal : st_bal s' = VestingFacts.apply_xfers (st_bal s) (modify_xf u (a_id a) a b price (b_denom b) amt))
    by reflexivity.
  rewrite (LedgerCharges.modify_xf_inv s u (a_id a) bid_id a b price amt I Fa Fb Ty) in Hbal. fold pd b' in Hbal.
  rewrite Z.max_r in Hbal by lia.
  assert (Hbo : bids_of s' (a_id a) = map (fun x => if N.eqb (b_id x) (b_id b') then b' else x) (bids_of s (a_id a))).
  { unfold s', modify_post. fold b'. rewrite (bids_of_put_bid_own _ b' (a_id a) Hba). reflexivity. }
  assert (Hvo : vqs_of s' (a_id a) = vqs_of s (a_id a)) by reflexivity.
  assert (FaF : find_auction s' (a_id a) = Some a) by exact Fa.
  assert (Hinb : In b (bids_of s (a_id a))).
  { unfold bids_of. apply filter_In.
    split; [exact Hbin|]. rewrite Hba. apply N.eqb_refl. }
  assert (Hnd : NoDup (map b_id (bids_of s (a_id a)))) by (rewrite Hbids; apply succ_ids_nodup).
  apply (books_kept_frame (a_id a) s s' a (inv_remaining _ I) F FaF).
  - exact (Ledger.pays_nonneg _ _ (Inv_bal_ok s I) Hp).
  - apply (ids_ok_same s); [reflexivity|reflexivity|]. apply ids_seq_ids_ok, (inv_ids _ I).
  - intros Hty. congruence.
  - intros r d'.
    rewrite sweepsP_same by (rewrite FaF, Fa; reflexivity).
    unfold excess. rewrite Hbal, Ledger.apply_xfers_net, net_user_send, esc_eqb, N.eqb_refl, andb_true_r.
    rewrite (owed_some _ r (a_id a) d' a FaF), (owed_some _ r (a_id a) d' a Fa), Hbo, Hvo, St. fold pd.
    destruct r; cbn [role_eqb andb ind]; [lia| |lia].
    cbn [status_eqb]. rewrite !andb_true_r. destruct (N.eqb d' pd); cbn [ind]; [|lia].
    change (b_id b') with (b_id b). rewrite (sum_replace (pay_amount pd) b b' _ Hnd Hinb). lia.
Qed.

Lemma books_kept_same s : Inv s -> books_kept s s.
Proof. apply books_kept_ext; reflexivity. Qed.

Lemma user_send_excess s from to d amt :
  forall r id d', excess (Ledger.banked s (Ledger.send_xf (User from) to d amt)) r id d'
    = excess s r id d' + (if addr_eqb to (Escrow r id) && N.eqb d' d then amt else 0).
Proof.
  intros r id d'. unfold excess. rewrite Ledger.banked_bal, net_user_send, (EqbFacts.addr_eqb_sym (Escrow r id)).
  unfold Ledger.banked. rewrite owed_with_bank. unfold ind. lia.
Qed.

(* every operation but blocks and GENESIS, from the state it leaves: the books are kept, but for an accepted plain
   send, the one operation that brings coins into an escrow from outside *)
Theorem tx_books s o out s' :
  Inv s -> tx_shape s o out s' ->
  escrow_inv s' /\ remaining_inv s' /\
  forall r id d, excess s' r id d = if sweepsP s s' r id d then 0 else excess s r id d + donation o out r id d.
Proof.
  intros I Sh. pose proof (fun id => tx_frame s o out s' id Sh) as F.
  assert (K : forall s', books_kept s s' -> donation o out = (fun _ _ _ => 0) -> escrow_inv s' /\ remaining_inv s' /\
              forall r id d, excess s' r id d = if sweepsP s s' r id d then 0 else excess s r id d + donation o out r id d).
  { intros s1 B ->. split; [exact (books_kept_escrow _ _ (inv_escrow _ I) B)|]. split; [exact (bk_remaining _ _ B)|].
    intros r id d. rewrite Z.add_0_r. apply (bk_exc _ _ B). }
  shape_names Sh.
  - (* SRej *) apply K; [apply books_kept_ext; try reflexivity; exact I|destruct o; reflexivity].
  - (* SSend: the one case with a donation *) clear K F. cbn [donation]. set (s' := Ledger.banked s (Ledger.send_xf (User from) to d amt)).
    assert (X : forall r id d', excess s' r id d' = if sweepsP s s' r id d' then 0
                  else excess s r id d' + (if addr_eqb to (Escrow r id) && N.eqb d' d then amt else 0)).
    { intros r id d'. rewrite sweepsP_same by reflexivity. apply user_send_excess. }
    split; [|split; [exact (inv_remaining _ I)|exact X]].
    apply (escrow_of_exc s _ (fun r id d' => if addr_eqb to (Escrow r id) && N.eqb d' d then amt else 0) (inv_escrow _ I)).
    + exact (Ledger.pays_nonneg _ _ (Inv_bal_ok s I) Hp).
    + apply Ledger.pays_send_xf in Hp. intros r id d'. cbv beta. destruct (_ && _); lia.
    + exact X.
  - (* SListeners *) apply K; [apply books_kept_ext; try reflexivity; exact I|reflexivity].
  - (* SParams *) apply K; [apply books_kept_ext; try reflexivity; exact I|reflexivity].
  - (* SCreate *) apply K; [|reflexivity].
    apply (create_kept s k1 k2 args a0 I Hid (is_open_new _ _ _ Hst) (fun T => proj2 (Hf T)) Hp).
    apply F, target_create, Hc.
  - (* SCancel *) apply K; [exact (cancel_kept s u up id a0 I F0 S0 Hp (F id eq_refl))|reflexivity].
  - (* SPlace *) apply K; [exact (place_kept s u id bt price d amt a0 I F0 S0 V Hp (F id eq_refl))|reflexivity].
  - (* SModify *) apply K; [|reflexivity]. subst d. exact (modify_kept s u id bid a0 b0 p amt I F0 S0 Ty Fb Hle Hp (F id eq_refl)).
  - (* SAllowed *) apply K; [|destruct o; try discriminate A; reflexivity].
    destruct (entries_put id l (hooked s k args)) as (al & -> & _). apply books_kept_ext; try reflexivity. exact I.
Qed.

Theorem nonblock_step_books s o :
  Inv s -> is_block o = false -> o <> OGenesis ->
  escrow_inv (snd (step s o)) /\ remaining_inv (snd (step s o)) /\ exc_step s o.
Proof. intros I Hb Hg. exact (tx_books s o _ _ I (step_shape s o Hb Hg)). Qed.

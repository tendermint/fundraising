(* Checker link for C15: the executable statement Checkers.c15_ok holds of every transition of the model
   from a state satisfying the invariant. *)
From Coq Require Import ZArith NArith List Bool Permutation.
From FR Require Import Types Genesis Model Checkers.
From FR.Proofs Require Import InvDefs GenesisSort GenesisRT GenesisImport FixedFacts EqbFacts.
Import ListNotations.
Open Scope Z_scope.

(* the import leaves the collections permuted, with distinct keys: sorted they are the same lists *)
Lemma module_state_eqb_same s s' :
  state_same s s' -> bids_wf s -> allowed_wf s -> vqs_wf s -> module_state_eqb s s' = true.
Proof.
  intros H Hb Hal Hvq.
  apply module_state_eqb_intro; [exact (ss_params _ _ H)|exact (ss_auctions _ _ H)| | | |exact (ss_aseq _ _ H)| |];
    unfold same_bids, same_allowed, same_vqs.
  - rewrite <- (sort_by_keyed bid_le bid_le_total bid_le_trans bid_key _ _ bid_le_key (InvStaticBase.bid_keys_NoDup s Hb)
                  (Permutation_sym (ss_bids_perm _ _ H))).
    apply list_eqb_refl. intros; apply bid_eqb_refl.
  - rewrite <- (sort_by_keyed allowed_le allowed_le_total allowed_le_trans allowed_key _ _ allowed_le_key (proj2 Hal)
                  (Permutation_sym (ss_allowed_perm _ _ H))).
    apply list_eqb_refl. intros; apply allowed_eqb_refl.
  - rewrite <- (sort_by_keyed vq_le vq_le_total vq_le_trans VestingFacts.vkey _ _ vq_le_key (VestingInv.vqs_wf_nodup s Hvq)
                  (Permutation_sym (ss_vqs_perm _ _ H))).
    apply list_eqb_refl. intros; apply vq_eqb_refl.
  - intros a. rewrite (ss_bseq _ _ H). reflexivity.
  - intros a. rewrite (ss_mlen _ _ H). reflexivity.
Qed.

Theorem c15_ok_model s o : Inv s -> c15_ok (model_trans s o) = true.
Proof.
  intros I. pose proof (Inv_ghost_reset s I) as I0. rewrite model_trans_eq. cbv zeta.
  unfold c15_ok. cbn [t_post t_pre t_op t_class t_gen_valid].
  destruct o as [m|id l|id u max|t orc|t orc k|from to d amt|ls|]; try reflexivity.
  destruct (genesis_step (ghost_reset s) I0) as [s1 [Hstep Hsame]]. rewrite Hstep.
  cbn [fst snd class_of oclass_eqb andb].
  change (module_state_eqb s s1) with (module_state_eqb (ghost_reset s) s1).
  change (balances_eqb s s1) with (balances_eqb (ghost_reset s) s1).
  rewrite (module_state_eqb_same _ _ Hsame (inv_bids _ I0) (inv_allowed _ I0) (inv_vqs _ I0)).
  rewrite (balances_eqb_same _ _ (ss_bal _ _ Hsame)). reflexivity.
Qed.

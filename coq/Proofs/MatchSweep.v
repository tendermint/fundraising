(* Closed form of the sweep of types.Match.
   The sweep is split into a pure, order-dependent assignment `assign` (what each bid gets,
   in sweep order) and order-independent sums of it (what each bidder gets: min(cap, asked)). *)
From Coq Require Import ZArith NArith List Lia.
From FR Require Import Dec Types Match.
From FR.Proofs Require Import ListFacts MatchBase.
Import ListNotations.
Open Scope Z_scope.
Opaque P.

(* the per-bidder table read with default (0,0), as calc_batch reads it *)
Definition getb (l : list (N * (Z * Z))) (u : N) : Z * Z :=
  match lookup_bidder l u with Some x => x | None => (0, 0) end.

Lemma getb_nil u : getb [] u = (0, 0).
Proof. reflexivity. Qed.

Lemma getb_add l u m pay v :
  getb (add_bidder l u m pay) v =
  if N.eqb v u then (fst (getb l u) + m, snd (getb l u) + pay) else getb l v.
Proof.
  unfold getb. induction l as [|[w [m0 p0]] l IH]; cbn [add_bidder lookup_bidder].
  - rewrite (N.eqb_sym u v). destruct (N.eqb_spec v u) as [->|NE]; cbn [fst snd]; [|reflexivity].
    f_equal.
  - destruct (N.eqb_spec w u) as [->|NE].
    + cbn [lookup_bidder fst snd].
      rewrite (N.eqb_sym u v). destruct (N.eqb v u); reflexivity.
    + cbn [lookup_bidder]. destruct (N.eqb_spec w v) as [E|NE2].
      * subst w. destruct (N.eqb_spec v u) as [E|_]; [contradiction|reflexivity].
      * rewrite IH. reflexivity.
Qed.

(* what each bid receives, in sweep order; cz: what is left of each bidder's cap *)
Fixpoint assign (p : Z) (l : list bid) (cz : N -> Z) : list (bid * Z) :=
  match l with
  | [] => []
  | b :: rest =>
      let m := Z.min (bid_qty_at b p) (cz (b_bidder b)) in
      (b, m) :: assign p rest (upd cz (b_bidder b) (cz (b_bidder b) - m))
  end.

Definition of_bidder (u : N) (asg : list (bid * Z)) : list (bid * Z) :=
  filter (fun x => N.eqb (b_bidder (fst x)) u) asg.
Definition got (u : N) (asg : list (bid * Z)) : Z := sumZ (map snd (of_bidder u asg)).
Definition paid_in (p : Z) (u : N) (asg : list (bid * Z)) : Z :=
  sumZ (map (fun x => pay_of_qty (snd x) p) (of_bidder u asg)).
Definition matched_ids (asg : list (bid * Z)) : list N :=
  map (fun x => b_id (fst x)) (filter (fun x => 0 <? snd x) asg).
Definition asked (p : Z) (u : N) (l : list bid) : Z :=
  sumZ (map (fun b => bid_qty_at b p) (filter (fun b => N.eqb (b_bidder b) u) l)).

Lemma got_cons u x asg :
  got u (x :: asg) = (if N.eqb (b_bidder (fst x)) u then snd x else 0) + got u asg.
Proof. apply (keyed_sum_cons (fun y => b_bidder (fst y)) snd). Qed.
Lemma paid_in_cons p u x asg :
  paid_in p u (x :: asg) = (if N.eqb (b_bidder (fst x)) u then pay_of_qty (snd x) p else 0) + paid_in p u asg.
Proof. apply (keyed_sum_cons (fun y => b_bidder (fst y)) (fun y => pay_of_qty (snd y) p)). Qed.
Lemma asked_cons p u b l :
  asked p u (b :: l) = (if N.eqb (b_bidder b) u then bid_qty_at b p else 0) + asked p u l.
Proof. apply (keyed_sum_cons b_bidder (fun b => bid_qty_at b p)). Qed.

Lemma asked_nonneg p u l : (forall b, In b l -> 0 <= bid_qty_at b p) -> 0 <= asked p u l.
Proof. apply keyed_sum_nonneg. Qed.

Lemma matched_ids_cons x asg :
  matched_ids (x :: asg) = (if 0 <? snd x then [b_id (fst x)] else []) ++ matched_ids asg.
Proof. unfold matched_ids. cbn [filter]. destruct (0 <? snd x); reflexivity. Qed.

Lemma matched_ids_in asg i :
  In i (matched_ids asg) <-> exists x, In x asg /\ 0 < snd x /\ b_id (fst x) = i.
Proof.
  unfold matched_ids. rewrite in_map_iff. split; intros (x & H1 & H2); exists x.
  - apply filter_In in H2. destruct H2 as [Hx L]. apply Z.ltb_lt in L. repeat split; assumption.
  - destruct H2 as [L E]. split; [exact E|]. apply filter_In. split; [exact H1|apply Z.ltb_lt; exact L].
Qed.

Lemma assign_fst p l : forall cz, map fst (assign p l cz) = l.
Proof. induction l as [|b l IH]; intros cz; cbn [assign map fst]; [reflexivity|]. rewrite IH. reflexivity. Qed.

Lemma assign_length p l cz : length (assign p l cz) = length l.
Proof. rewrite <- (assign_fst p l cz) at 2. rewrite map_length. reflexivity. Qed.

Lemma assign_spec p l : forall cz,
  (forall b, In b l -> 0 <= bid_qty_at b p) -> (forall u, 0 <= cz u) ->
  (forall x, In x (assign p l cz) -> 0 <= snd x <= bid_qty_at (fst x) p) /\
  (forall u, got u (assign p l cz) = Z.min (cz u) (asked p u l)).
Proof.
  induction l as [|b l IH]; intros cz Hq Hc.
  - split; [intros x []|]. intros u. unfold got, asked. cbn [assign of_bidder filter map]. rewrite sumZ_nil.
    specialize (Hc u). lia.
  - cbn [assign]. pose proof (Hq b (or_introl eq_refl)) as Hqb. pose proof (Hc (b_bidder b)) as Hcb.
    set (m := Z.min (bid_qty_at b p) (cz (b_bidder b))).
    destruct (IH (upd cz (b_bidder b) (cz (b_bidder b) - m))) as [IH1 IH2].
    + intros b' Hb'. apply Hq. right. exact Hb'.
    + intros u. unfold upd. destruct (N.eqb u (b_bidder b)); [lia|apply Hc].
    + split.
      * intros x [<-|Hx]; [cbn [fst snd]; lia|apply IH1; exact Hx].
      * intros u. rewrite got_cons, asked_cons, IH2. cbn [fst snd].
        pose proof (asked_nonneg p u l (fun b' Hb' => Hq b' (or_intror Hb'))) as Ha. specialize (Hc u).
        unfold upd. rewrite (N.eqb_sym u (b_bidder b)).
        destruct (N.eqb_spec (b_bidder b) u) as [E|NE]; [|lia]. subst m. rewrite E in *. lia.
Qed.

Lemma assign_total p l cz U :
  NoDup U -> (forall b, In b l -> In (b_bidder b) U) ->
  (forall b, In b l -> 0 <= bid_qty_at b p) -> (forall u, 0 <= cz u) ->
  sumZ (map snd (assign p l cz)) = sumZ (map (fun u => Z.min (cz u) (asked p u l)) U).
Proof.
  intros HU HinU Hq Hcz.
  rewrite <- (keyed_sum_total (fun x => b_bidder (fst x)) snd U (assign p l cz) HU).
  - apply sumZ_map_ext. intros u _. apply (assign_spec p l cz Hq Hcz).
  - intros x Hx. apply HinU. rewrite <- (assign_fst p l cz).
    apply in_map. exact Hx.
Qed.

Lemma matched_ids_nil_iff asg :
  (forall x, In x asg -> 0 <= snd x) ->
  (matched_ids asg = [] <-> sumZ (map snd asg) = 0).
Proof.
  intros H. unfold matched_ids. split; intros E.
  - apply map_eq_nil in E. rewrite (sumZ_map_ext snd (fun _ => 0)); [apply sumZ_zeros|].
    intros x Hx. pose proof (proj1 (filter_nil_iff _ _) E x Hx) as L. apply Z.ltb_ge in L.
    specialize (H x Hx). lia.
  - rewrite (proj2 (filter_nil_iff _ _)); [reflexivity|].
    intros x Hx. apply Z.ltb_ge. rewrite (sumZ_map_zero snd asg H E x Hx). lia.
Qed.

Theorem sweep_assign p supply :
  forall l caps cz total matched byb,
  (forall b, In b l -> 0 <= bid_qty_at b p) ->
  (forall b, In b l -> caps (b_bidder b) = Some (cz (b_bidder b))) ->
  (forall u, 0 <= cz u) ->
  total <= supply ->
  match sweep p supply l caps total matched byb with
  | SPanic => False
  | SExceed => supply < total + sumZ (map snd (assign p l cz))
  | SFit r =>
      mr_total r = total + sumZ (map snd (assign p l cz)) /\ mr_total r <= supply /\
      mr_matched r = matched ++ matched_ids (assign p l cz) /\
      forall u, getb (mr_bidders r) u =
                (fst (getb byb u) + got u (assign p l cz), snd (getb byb u) + paid_in p u (assign p l cz))
  end.
Proof.
  induction l as [|b l IH]; intros caps cz total matched byb Hq Hcaps Hcz Htot.
  - cbn [sweep assign map mr_total mr_matched mr_bidders]. rewrite sumZ_nil.
    unfold matched_ids, got, paid_in, of_bidder. cbn [filter map]. rewrite sumZ_nil, app_nil_r.
    repeat split; try lia. intros u. destruct (getb byb u) as [x y].
    cbn [fst snd]. f_equal; lia.
  - cbn [sweep assign].
    rewrite (Hcaps b (or_introl eq_refl)).
    pose proof (Hq b (or_introl eq_refl)) as Hqb. pose proof (Hcz (b_bidder b)) as Hcb.
    set (m := Z.min (bid_qty_at b p) (cz (b_bidder b))).
    assert (Hm : 0 <= m <= cz (b_bidder b)) by (subst m; lia).
    set (cz' := upd cz (b_bidder b) (cz (b_bidder b) - m)).
    assert (Hcz' : forall u, 0 <= cz' u).
    { intros u. subst cz'. unfold upd. destruct (N.eqb u (b_bidder b)); [lia|apply Hcz]. }
    assert (Hq' : forall b', In b' l -> 0 <= bid_qty_at b' p) by (intros b' Hb'; apply Hq; right; exact Hb').
    pose proof (sumZ_map_nonneg snd _ (fun x Hx => proj1 (proj1 (assign_spec p l cz' Hq' Hcz') x Hx))) as Hrest.
    cbn [map snd]. rewrite sumZ_cons.
    destruct (Z.ltb_spec supply (total + m)) as [Hex|Hfit]; [lia|].
    set (byb' := add_bidder byb (b_bidder b) m (pay_of_qty m p)).
    (* the code skips the bookkeeping when m = 0, where it would change nothing: one form for both branches *)
    set (caps' := if 0 <? m then upd caps (b_bidder b) (Some (cz (b_bidder b) - m)) else caps).
    assert (Hgo : (if 0 <? m
                   then sweep p supply l (upd caps (b_bidder b) (Some (cz (b_bidder b) - m))) (total + m)
                              (matched ++ [b_id b]) byb'
                   else sweep p supply l caps total matched byb')
                  = sweep p supply l caps' (total + m) (matched ++ if 0 <? m then [b_id b] else []) byb').
    { subst caps'. destruct (Z.ltb_spec 0 m) as [_|Hz]; [reflexivity|].
      replace (total + m) with total by lia. rewrite app_nil_r. reflexivity. }
    rewrite Hgo. clear Hgo.
    assert (Hcaps' : forall b', In b' l -> caps' (b_bidder b') = Some (cz' (b_bidder b'))).
    { intros b' Hb'. specialize (Hcaps b' (or_intror Hb')). subst caps' cz'. unfold upd.
      destruct (Z.ltb_spec 0 m) as [_|Hz], (N.eqb_spec (b_bidder b') (b_bidder b)) as [E|NE];
        try reflexivity; try exact Hcaps.
      rewrite Hcaps, E. f_equal. lia. }
    specialize (IH caps' cz' (total + m) (matched ++ if 0 <? m then [b_id b] else []) byb'
                   Hq' Hcaps' Hcz' Hfit).
    destruct (sweep p supply l _ _ _ _) as [r| |]; [|lia|exact IH].
    destruct IH as (E1 & E2 & E3 & E4). split; [lia|]. split; [exact E2|]. split.
    + rewrite E3, matched_ids_cons, <- app_assoc. reflexivity.
    + intros u. rewrite E4. subst byb'.
      rewrite getb_add, got_cons, paid_in_cons. cbn [fst snd].
      rewrite (N.eqb_sym (b_bidder b) u).
      destruct (N.eqb_spec u (b_bidder b)) as [->|NE]; cbn [fst snd]; f_equal; lia.
Qed.

Theorem sweep_closed_form p supply U l caps cz total matched byb :
  NoDup U ->
  (forall b, In b l -> In (b_bidder b) U) ->
  (forall b, In b l -> 0 <= bid_qty_at b p) ->
  (forall u, In u U -> caps u = Some (cz u)) ->
  (forall u, 0 <= cz u) ->
  total <= supply ->
  let D := sumZ (map (fun u => Z.min (cz u) (asked p u l)) U) in
  match sweep p supply l caps total matched byb with
  | SPanic => False
  | SExceed => supply < total + D
  | SFit r =>
      total + D <= supply /\ mr_total r = total + D /\
      mr_matched r = matched ++ matched_ids (assign p l cz) /\
      (mr_matched r = matched <-> D = 0) /\
      forall u, fst (getb (mr_bidders r) u) = fst (getb byb u) + Z.min (cz u) (asked p u l)
  end.
Proof.
  intros HU HinU Hq Hcaps Hcz Htot D.
  pose proof (assign_total p l cz U HU HinU Hq Hcz) as ED. fold D in ED.
  destruct (assign_spec p l cz Hq Hcz) as [Hbd Hgot].
  pose proof (sweep_assign p supply l caps cz total matched byb Hq (fun b Hb => Hcaps _ (HinU b Hb)) Hcz Htot) as H.
  destruct (sweep p supply l caps total matched byb) as [r| |]; [|lia|exact H].
  destruct H as (E1 & E2 & E3 & E4). rewrite ED in E1.
  split; [lia|]. split; [exact E1|]. split; [exact E3|]. split.
  - rewrite E3, <- ED, <- (matched_ids_nil_iff _ (fun x Hx => proj1 (Hbd x Hx))).
    split; intros E; [apply (app_inv_head matched); rewrite app_nil_r; exact E|rewrite E; apply app_nil_r].
  - intros u. rewrite E4, Hgot. reflexivity.
Qed.

Lemma sweep_ext p supply bs : forall caps caps' total matched byb,
  (forall u, caps u = caps' u) ->
  sweep p supply bs caps total matched byb = sweep p supply bs caps' total matched byb.
Proof.
  induction bs as [|b rest IH]; intros caps caps' total matched byb Hc; [reflexivity|].
  cbn [sweep]. rewrite <- (Hc (b_bidder b)).
  destruct (caps (b_bidder b)) as [cap|]; [|reflexivity].
  destruct (supply <? total + Z.min (bid_qty_at b p) cap); [reflexivity|].
  destruct (0 <? Z.min (bid_qty_at b p) cap).
  - apply IH. intros u. unfold upd. destruct (N.eqb u (b_bidder b)); [reflexivity|apply Hc].
  - apply IH. exact Hc.
Qed.

Lemma match_at_ext p supply order al al' :
  (forall u, caps_of al u = caps_of al' u) -> match_at p supply order al = match_at p supply order al'.
Proof. intros Hc. unfold match_at. apply sweep_ext. exact Hc. Qed.

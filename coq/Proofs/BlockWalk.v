(* What BeginBlocker does to the state.  One auction (process): it is one of five actions, each with the state it
   leaves as a term over the state before (act_state; act_state_eq: as one explicit record) and the condition under
   which it goes through: its hook is not vetoed and its transfers pay (process_iff).  The ledger, the record, what the
   choice depends on (chosen_slice; chosen_status, chosen_by_status: status against action), the queue and the frame
   are read off the action.  The whole list (process_all): a relation kept by every step is kept by the walk, with no
   hypothesis (process_all_chain); so what is not processed stays (process_all_frame), what no action writes
   (walk_eff), each auction processed once from its own slice (process_all_alone), and one forward induction over the
   auctions of the store (process_all_walk).  Then the block: what it does to every record and what it leaves
   (begin_block_rel, _absent, _idle, _eff), and as a step of the model (step_block; step_block_ok for a block that went
   through). *)
From Coq Require Import ZArith List Lia.
From FR Require Import Types Match Step Spec Model.
From FR.Proofs Require Import ResFacts FrameFacts BlockFacts VestingFacts Ledger VestingRelease LedgerSettle.
From FR.Proofs Require HookFacts HookSites.
Import ListNotations.
Open Scope Z_scope.

Lemma close_batch_unfold s orc a order mi :
  valid_order (bids_of s (a_id a)) (oracle_ids orc (a_id a)) = Some order ->
  calc_batch a (bids_of s (a_id a)) order (allowed_of s (a_id a)) = Some mi ->
  close_batch s orc a =
    if decision s a mi
    then Ok (put_auction (set_flags s (a_id a) (mi_matched mi)) (extended s a mi))
    else settle_batch (set_flags s (a_id a) (mi_matched mi)) (set_matched_price a (mi_price mi)) mi.
Proof.
  intros HV HC. unfold close_batch. cbv zeta.
  fold (oracle_ids orc (a_id a)). rewrite HV, HC.
  rewrite decision_if. unfold extend_round, extended. cbn [a_max_round a_ends a_rate set_matched_price].
  destruct (N.eqb (a_max_round a + 1) (N.of_nat (length (a_ends a)))); [reflexivity|].
  destruct (st_mlen s (a_id a) =? 0); reflexivity.
Qed.

Lemma close_batch_inv s orc a s' :
  close_batch s orc a = Ok s' ->
  exists order mi,
    valid_order (bids_of s (a_id a)) (oracle_ids orc (a_id a)) = Some order /\
    calc_batch a (bids_of s (a_id a)) order (allowed_of s (a_id a)) = Some mi /\
    if decision s a mi
    then s' = put_auction (set_flags s (a_id a) (mi_matched mi)) (extended s a mi)
    else settle_batch (set_flags s (a_id a) (mi_matched mi)) (set_matched_price a (mi_price mi)) mi = Ok s'.
Proof.
  intros H.
  destruct (valid_order (bids_of s (a_id a)) (oracle_ids orc (a_id a))) as [order|] eqn:HV.
  1: destruct (calc_batch a (bids_of s (a_id a)) order (allowed_of s (a_id a))) as [mi|] eqn:HC.
  2, 3: unfold close_batch in H; cbv zeta in H; fold (oracle_ids orc (a_id a)) in H.
  2, 3: rewrite HV, ?HC in H; discriminate H.
  exists order, mi. split; [reflexivity|]. split; [exact HC|].
  rewrite (close_batch_unfold s orc a order mi HV HC) in H.
  destruct (decision s a mi); [injection H as <-; reflexivity|exact H].
Qed.

Record proc_eff (id : N) (s s' : state) : Prop := {
  pe_frame : frame id s s';
  pe_glob : glob_eq s s';
  pe_bids : bids_evolve_by flag_only s s';
  pe_bseq : st_bseq s' = st_bseq s;
  pe_allowed : st_allowed s' = st_allowed s }.

Lemma flag_same s s' : st_bids s' = st_bids s -> bids_evolve_by flag_only s s'.
Proof. apply bids_evolve_by_same. exact flag_only_refl. Qed.

(* What processing one auction does, exactly.  It is one of five things: *)
Inductive act := AIdle | AOpen | AExtend (mi : minfo) | ASettle (mi : minfo) (wr : bool) | ARelease.

(* the state a settlement starts from and the record it settles the auction as: CloseBatchAuction has written the flags
   and the price before *)
Definition settle_from (s : state) (a : auction) (mi : minfo) (wr : bool) : state :=
  if wr then set_flags s (a_id a) (mi_matched mi) else s.
Definition settle_as (a : auction) (mi : minfo) (wr : bool) : auction :=
  if wr then set_matched_price a (mi_price mi) else a.

Definition act_state (t : Z) (s : state) (a : auction) (x : act) : state :=
  match x with
  | AIdle => s
  | AOpen => put_auction s (set_status a Started)
  | AExtend mi => put_auction (set_flags s (a_id a) (mi_matched mi)) (extended s a mi)
  | ASettle mi wr => settle_state (settle_from s a mi wr) (settle_as a mi wr) mi wr
  | ARelease => released_state s a t (vqs_of s (a_id a))
  end.

Definition act_xfers (t : Z) (s : state) (a : auction) (x : act) : list xfer :=
  match x with
  | ASettle mi wr => settle_xfers s a mi wr
  | ARelease => rel_xfers a t (vqs_of s (a_id a))
  | _ => []
  end.

(* the precondition of an action, when it goes through: its hook is not vetoed and its transfers pay (the flags and
   the price written before a batch settlement do not matter to either) *)
Definition act_pre (t : Z) (s : state) (a : auction) (x : act) : Prop :=
  match x with ASettle _ _ => no_veto s H_BeforeAllocated = true | _ => True end /\ pays (st_bal s) (act_xfers t s a x).

Definition batch_mi (orc : list (N * list N)) (s : state) (a : auction) (mi : minfo) : Prop :=
  exists order, valid_order (bids_of s (a_id a)) (oracle_ids orc (a_id a)) = Some order
                /\ calc_batch a (bids_of s (a_id a)) order (allowed_of s (a_id a)) = Some mi.

(* Which of them it is.  AIdle is chosen where process returns the state as it is; a vesting auction is never AIdle but
   ARelease, also when no entry is due.  BlockFacts.idle (nothing due: process_idle) and the BoSame case of block_out (the
   record stays) are the two weaker notions, which hold of such a release as well. *)
Inductive chosen (t : Z) (orc : list (N * list N)) (s : state) (a : auction) : act -> Prop :=
| ChIdle :
    match a_status a with
    | StandBy => t < a_start a | Started => t < last_end a | VestingS => False | Finished | Cancelled => True
    end -> chosen t orc s a AIdle
| ChOpen : a_status a = StandBy -> a_start a <= t -> chosen t orc s a AOpen
| ChFixed : a_status a = Started -> last_end a <= t -> a_type a = FixedPrice ->
    chosen t orc s a (ASettle (calc_fixed a (bids_of s (a_id a))) false)
| ChBatch mi : a_status a = Started -> last_end a <= t -> a_type a = Batch -> batch_mi orc s a mi ->
    chosen t orc s a (if decision s a mi then AExtend mi else ASettle mi true)
| ChRelease : a_status a = VestingS -> chosen t orc s a ARelease.

Lemma close_batch_iff s orc a s' :
  close_batch s orc a = Ok s' <->
  exists mi, batch_mi orc s a mi /\
    if decision s a mi then s' = put_auction (set_flags s (a_id a) (mi_matched mi)) (extended s a mi)
    else settle_gen (set_flags s (a_id a) (mi_matched mi)) (set_matched_price a (mi_price mi)) mi true = Ok s'.
Proof.
  split.
  - intros H. apply close_batch_inv in H. destruct H as (order & mi & HV & HC & H). exists mi.
    split; [exists order; auto|exact H].
  - intros (mi & (order & HV & HC) & H). rewrite (close_batch_unfold s orc a order mi HV HC).
    destruct (decision s a mi); [rewrite H; reflexivity|exact H].
Qed.

Theorem process_iff t orc s a s' :
  process t orc s a = Ok s' <-> exists x, chosen t orc s a x /\ act_pre t s a x /\ s' = act_state t s a x.
Proof.
  assert (Q : forall x, act_xfers t s a x = [] -> (forall mi wr, x <> ASettle mi wr) -> act_pre t s a x).
  { intros x E N. split; [destruct x; try exact I; destruct (N mi wr eq_refl)|rewrite E; exact I]. }
  split.
  - unfold process. intros H. destruct (a_status a) eqn:St.
    + destruct (Z.leb_spec (a_start a) t) as [L|L]; injection H as <-.
      * exists AOpen. split; [apply ChOpen; assumption|]. split; [apply Q; [reflexivity|discriminate]|reflexivity].
      * exists AIdle. split; [apply ChIdle; rewrite St; exact L|]. split; [apply Q; [reflexivity|discriminate]|reflexivity].
    + destruct (Z.leb_spec (last_end a) t) as [L|L].
      2:{ injection H as <-. exists AIdle. split; [apply ChIdle; rewrite St; exact L|].
          split; [apply Q; [reflexivity|discriminate]|reflexivity]. }
      destruct (a_type a) eqn:Ty.
      * rewrite close_fixed_gen in H. apply settle_gen_iff in H. destruct H as [P ->].
        exists (ASettle (calc_fixed a (bids_of s (a_id a))) false). split; [apply ChFixed; assumption|].
        split; [exact P|reflexivity].
      * apply close_batch_iff in H. destruct H as (mi & M & H).
        exists (if decision s a mi then AExtend mi else ASettle mi true). split; [apply ChBatch; assumption|].
        destruct (decision s a mi); [split; [apply Q; [reflexivity|discriminate]|exact H]|].
        apply settle_gen_iff in H. destruct H as [P ->]. split; [exact P|reflexivity].
    + exists ARelease. split; [apply ChRelease, St|]. apply yields_release_loop in H. destruct H as [P ->].
      split; [split; [exact I|exact P]|reflexivity].
    + injection H as <-. exists AIdle. split; [apply ChIdle; rewrite St; exact I|]. split; [apply Q; [reflexivity|discriminate]|reflexivity].
    + injection H as <-. exists AIdle. split; [apply ChIdle; rewrite St; exact I|]. split; [apply Q; [reflexivity|discriminate]|reflexivity].
  - intros (x & C & P & ->). unfold process. destruct C as [C|St L|St L Ty|mi St L Ty M|St].
    + destruct (a_status a); try reflexivity; try contradiction; apply Z.leb_gt in C; rewrite C; reflexivity.
    + apply Z.leb_le in L. rewrite St, L. reflexivity.
    + apply Z.leb_le in L. rewrite St, L, Ty, close_fixed_gen. apply settle_gen_iff. split; [exact P|reflexivity].
    + apply Z.leb_le in L. rewrite St, L, Ty. apply close_batch_iff. exists mi. split; [exact M|].
      destruct (decision s a mi); [reflexivity|]. apply settle_gen_iff. split; [exact P|reflexivity].
    + rewrite St. apply yields_release_loop. split; [exact (proj2 P)|reflexivity].
Qed.

(* What is read off an action.  First the record it leaves: *)
Definition act_record (t : Z) (s : state) (a : auction) (x : act) : auction :=
  match x with
  | AIdle => a
  | AOpen => set_status a Started
  | AExtend mi => extended s a mi
  | ASettle mi wr => set_status (settle_as a mi wr) (settled_st a)
  | ARelease => if last_due t (vqs_of s (a_id a)) then set_status a Finished else a
  end.

Lemma split_set_matched a p total : forall vs rem, split (set_matched_price a p) total rem vs = split a total rem vs.
Proof. induction vs as [|v vs IH]; intros rem; cbn [split]; [reflexivity|]. rewrite IH. reflexivity. Qed.
Lemma new_vqs_settle_as a mi wr R : new_vqs (settle_as a mi wr) R = new_vqs a R.
Proof.
  destruct wr; [|reflexivity]. unfold new_vqs. cbn [settle_as a_scheds set_matched_price].
  destruct (a_scheds a); [reflexivity|apply split_set_matched].
Qed.

(* the state of an action, field by field *)
Definition act_auctions (t : Z) (s : state) (a : auction) (x : act) : list auction :=
  match x with
  | AIdle => st_auctions s
  | ARelease => if last_due_rec t (vqs_of s (a_id a)) then st_auctions (put_auction s (set_status a Finished)) else st_auctions s
  | _ => st_auctions (put_auction s (act_record t s a x))
  end.
Definition act_flags (s : state) (a : auction) (x : act) : state :=
  match x with AExtend mi | ASettle mi true => set_flags s (a_id a) (mi_matched mi) | _ => s end.
Definition act_vqs (t : Z) (s : state) (a : auction) (x : act) : list vq :=
  match x with
  | ASettle mi wr => st_vqs s ++ new_vqs a (proceeds_of s a mi wr)
  | ARelease => map (mark (due_of t (vqs_of s (a_id a)))) (st_vqs s)
  | _ => st_vqs s
  end.
Definition act_trace (s : state) (a : auction) (x : act) : list hookcall :=
  match x with ASettle mi wr => st_trace s ++ HookFacts.all_calls s H_BeforeAllocated (HookSites.alloc_args a mi wr) | _ => st_trace s end.

(* one explicit record: a consumer reads its field by computation *)
Theorem act_state_eq t s a x :
  act_state t s a x =
  {| st_params := st_params s; st_auctions := act_auctions t s a x; st_bids := st_bids (act_flags s a x);
     st_allowed := st_allowed s; st_vqs := act_vqs t s a x; st_aseq := st_aseq s; st_bseq := st_bseq s;
     st_mlen := st_mlen (act_flags s a x); st_bal := apply_xfers (st_bal s) (act_xfers t s a x); st_now := st_now s;
     st_listeners := st_listeners s; st_switch := st_switch s; st_xfers := st_xfers s ++ act_xfers t s a x;
     st_trace := act_trace s a x |}.
Proof.
  destruct x as [| |mi|mi wr|]; cbn [act_state act_auctions act_flags act_vqs act_trace act_xfers act_record].
  - rewrite app_nil_r. destruct s; reflexivity.
  - rewrite app_nil_r. reflexivity.
  - rewrite app_nil_r. reflexivity.
  - unfold settle_state. rewrite new_vqs_settle_as. destruct wr; reflexivity.
  - unfold released_state. cbv zeta. destruct (last_due_rec t (vqs_of s (a_id a))); reflexivity.
Qed.

(* the bank: the transfers of the action, replayed *)
Lemma act_ledger t s a x : act_pre t s a x -> ledger_by s (act_state t s a x) (act_xfers t s a x).
Proof.
  intros [_ P]. apply (banked_ledger s _ _ P). rewrite act_state_eq. split; reflexivity.
Qed.

(* every transfer is out of an escrow account of the auction, to a user or to its vesting escrow *)
Lemma act_xfers_ends t s a x : Forall (fun y => src_of (a_id a) y /\ own_ends (a_id a) y) (act_xfers t s a x).
Proof.
  destruct x as [| |mi|mi wr|]; cbn [act_xfers]; try constructor; [apply settle_xfers_ends|].
  rewrite Forall_forall. intros y Hy. destruct (rel_xfers_ends _ _ _ _ Hy) as [E1 E2]. unfold src_of, own_ends.
  rewrite E1, E2. split; [exists Vesting; reflexivity|split; [reflexivity|exact I]].
Qed.

Lemma act_xfers_keep t s a x b : esc_keep (a_id a) b (apply_xfers b (act_xfers t s a x)).
Proof.
  apply apply_xfers_esc_keep. eapply Forall_impl; [|apply act_xfers_ends]. intros y [_ H]. exact H.
Qed.

Lemma settle_state_find s a mi wr a0 :
  find_auction s (a_id a) = Some a0 -> find_auction (settle_state s a mi wr) (a_id a) = Some (set_status a (settled_st a)).
Proof.
  intros F. destruct (find_auction_some _ _ _ F) as [_ E]. rewrite <- E in *.
  apply (find_after_put s _ a0 (set_status a (settled_st a))); [reflexivity|exact (eq_sym E)|exact F].
Qed.

Lemma act_find t s a x :
  find_auction s (a_id a) = Some a -> find_auction (act_state t s a x) (a_id a) = Some (act_record t s a x).
Proof.
  intros F. rewrite act_state_eq. unfold find_auction. cbn [st_auctions]. fold (find_auction s (a_id a)) in F.
  destruct x as [| |mi|mi wr|]; cbn [act_auctions act_record].
  - exact F.
  - exact (find_auction_put_same s (set_status a Started) a F).
  - exact (find_auction_put_same s (extended s a mi) a F).
  - destruct wr; [exact (find_auction_put_same s (set_status (set_matched_price a (mi_price mi)) (settled_st a)) a F)|].
    exact (find_auction_put_same s (set_status a (settled_st a)) a F).
  - rewrite last_due_eq. destruct (last_due_rec t (vqs_of s (a_id a))); [|exact F].
    exact (find_auction_put_same s (set_status a Finished) a F).
Qed.

Lemma chosen_rel t orc s a x : chosen t orc s a x -> block_rel t orc s a (act_record t s a x).
Proof.
  intros C. unfold block_rel. destruct C as [C|St L|St L Ty|mi St L Ty (order & HV & HC)|St]; cbn [act_record].
  - revert C. destruct (a_status a); intros C; try reflexivity; try contradiction; apply Z.leb_gt in C; rewrite C; reflexivity.
  - apply Z.leb_le in L. rewrite St, L. reflexivity.
  - apply Z.leb_le in L. rewrite St, L, Ty. reflexivity.
  - apply Z.leb_le in L. rewrite St, L, Ty. exists order, mi. split; [exact HV|]. split; [exact HC|].
    destruct (decision s a mi); reflexivity.
  - rewrite St. reflexivity.
Qed.

(* the choice reads only the slice of the auction and the parameters, and it is a function of them *)
Lemma decision_slice s s1 a mi :
  slice_eq (a_id a) s s1 -> st_params s1 = st_params s -> decision s1 a mi = decision s a mi /\ extended s1 a mi = extended s a mi.
Proof. intros S Ep. unfold decision, extended. rewrite (se_mlen _ _ _ S), Ep. split; reflexivity. Qed.


Lemma chosen_slice t orc s s1 a x :
  slice_eq (a_id a) s s1 -> st_params s1 = st_params s -> chosen t orc s1 a x -> chosen t orc s a x.
Proof.
  intros S Ep C. destruct C as [C|St L|St L Ty|mi St L Ty M|St].
  - apply ChIdle, C.
  - apply ChOpen; assumption.
  - rewrite (se_bids _ _ _ S). apply ChFixed; assumption.
  - rewrite (proj1 (decision_slice s s1 a mi S Ep)). apply ChBatch; try assumption.
    unfold batch_mi in *. rewrite <- (se_bids _ _ _ S), <- (se_allowed _ _ _ S). exact M.
  - apply ChRelease, St.
Qed.


Lemma chosen_fun t orc s a x y : chosen t orc s a x -> chosen t orc s a y -> x = y.
Proof.
  intros C D.
  destruct C as [C|St L|St L Ty|mi St L Ty (o1 & V1 & C1)|St];
    destruct D as [D|St' L'|St' L' Ty'|mi' St' L' Ty' (o2 & V2 & C2)|St']; try reflexivity; try congruence;
    try (rewrite St' in C; (lia || destruct C)); try (rewrite St in D; (lia || destruct D)).
  rewrite V1 in V2. injection V2 as <-. rewrite C1 in C2. injection C2 as <-. reflexivity.
Qed.

(* The status against the action, both ways: the status an action is chosen in; and where the status alone decides, a
   vesting auction is released, a finished or cancelled one is left as it is. *)
Lemma chosen_status t orc s a x :
  chosen t orc s a x ->
  match x with
  | AIdle => True | AOpen => a_status a = StandBy | AExtend _ | ASettle _ _ => a_status a = Started
  | ARelease => a_status a = VestingS
  end.
Proof. intros C. destruct C as [C|St L|St L Ty|mi St L Ty M|St]; try destruct (decision s a mi); auto. Qed.

Lemma chosen_by_status t orc s a x :
  chosen t orc s a x ->
  match a_status a with VestingS => x = ARelease | Finished | Cancelled => x = AIdle | _ => True end.
Proof.
  intros C. destruct C as [C|St L|St L Ty|mi St L Ty M|St]; try (rewrite St; exact I || reflexivity).
  destruct (a_status a); reflexivity || exact I || destruct C.
Qed.

(* settles_with is the choice of a settlement *)
Lemma chosen_settle_iff t orc s a mi wr :
  chosen t orc s a (ASettle mi wr) <-> a_status a = Started /\ settles_with t orc s a mi wr.
Proof.
  split.
  - intros C. inversion C as [| |St L Ty|mi0 St L Ty M E|]; subst.
    + split; [exact St|]. split; [exact L|]. left. auto.
    + destruct (decision s a mi0) eqn:D; [discriminate E|]. injection E as <- <-.
      split; [exact St|]. split; [exact L|]. right. auto.
  - intros (St & L & [(Ty & -> & ->)|(Ty & -> & D & M)]); [apply ChFixed; assumption|].
    pose proof (ChBatch t orc s a mi St L Ty M) as C. rewrite D in C. exact C.
Qed.

(* an open auction whose record is settled afterwards was processed by a settlement *)
Lemma settling_act t orc s a x :
  a_status a = Started -> chosen t orc s a x ->
  (a_status (act_record t s a x) = VestingS \/ a_status (act_record t s a x) = Finished) ->
  exists mi wr, x = ASettle mi wr /\ settles_with t orc s a mi wr.
Proof.
  intros St C Hst.
  assert (No : forall y, a_status y = Started -> a_status y = VestingS \/ a_status y = Finished -> False).
  { intros y Sy [E|E]; rewrite Sy in E; discriminate E. }
  destruct C as [C|St' L|St' L Ty|mi St' L Ty (order & HV & HC)|St']; try congruence.
  - destruct (No a St Hst).
  - eexists _, false. split; [reflexivity|]. split; [exact L|left; auto].
  - destruct (decision s a mi) eqn:D; [destruct (No (extended s a mi)); [exact St|exact Hst]|].
    exists mi, true. split; [reflexivity|]. split; [exact L|right; eauto 8].
Qed.

(* the queue after a settlement *)
Lemma new_vqs_own a R : filter (fun v => N.eqb (v_auction v) (a_id a)) (new_vqs a R) = new_vqs a R.
Proof. apply ListFacts.filter_all_true. intros y Hy. apply N.eqb_eq, (new_vqs_auction a R y Hy). Qed.

Lemma settled_vqs s a mi wr :
  st_vqs (settle_state (settle_from s a mi wr) (settle_as a mi wr) mi wr) = st_vqs s ++ new_vqs a (proceeds_of s a mi wr).
Proof. exact (f_equal st_vqs (act_state_eq 0 s a (ASettle mi wr))). Qed.   (* a settlement does not read the time *)

Lemma settled_own_vqs s a mi wr :
  vqs_of (settle_state (settle_from s a mi wr) (settle_as a mi wr) mi wr) (a_id a)
  = vqs_of s (a_id a) ++ new_vqs a (proceeds_of s a mi wr).
Proof. unfold vqs_of at 1. rewrite settled_vqs, filter_app, new_vqs_own. reflexivity. Qed.

(* The frame of an action: what is about another auction stays. *)
Lemma act_frame t s a x : frame (a_id a) s (act_state t s a x).
Proof.
  pose proof (act_xfers_keep t s a x (st_bal s)) as K.
  rewrite act_state_eq. apply frame_fields; cbn [st_auctions st_bids st_allowed st_vqs st_bseq st_mlen st_bal].
  - destruct x as [| |mi|mi [|]|]; cbn [act_auctions act_record settle_as put_auction st_auctions with_auctions];
      try destruct (last_due_rec _ _); cbn [put_auction st_auctions with_auctions]; auto with kept.
  - destruct x as [| |mi|mi [|]|]; cbn [act_flags set_flags st_bids with_bids with_mlen]; auto with kept.
  - apply kept_refl.
  - destruct x as [| |mi|mi wr|]; cbn [act_vqs]; try apply kept_refl.
    + apply kept_app; [apply kept_refl|apply new_vqs_auction].
    + apply kept_map; [apply kept_refl| |intros v; apply mark_auction].
      intros v Hv. apply (mark_other (a_id a)); [|exact Hv]. intros k Hk. unfold due_of in Hk.
      apply filter_In in Hk. eapply vqs_of_auction, Hk.
  - apply fn_kept_refl.
  - destruct x as [| |mi|mi [|]|]; cbn [act_flags set_flags st_mlen with_mlen]; auto with kept.
  - exact K.
Qed.

Theorem act_eff t s a x : proc_eff (a_id a) s (act_state t s a x).
Proof.
  split; [apply act_frame| | |rewrite act_state_eq; reflexivity|rewrite act_state_eq; reflexivity].
  - rewrite act_state_eq. repeat split. cbn [st_auctions].
    destruct x as [| |mi|mi wr|]; cbn [act_auctions]; try destruct (last_due_rec _ _);
      cbn [put_auction st_auctions with_auctions]; rewrite ?map_id_put; reflexivity.
  - intros j i b0. rewrite act_state_eq. unfold find_bid. cbn [st_bids].
    destruct x as [| |mi|mi [|]|]; cbn [act_flags]; try (apply (flag_same s s eq_refl));
      apply (set_flags_evolve s (a_id a) (mi_matched mi)).
Qed.

Lemma process_eff t orc s a s' : process t orc s a = Ok s' -> proc_eff (a_id a) s s'.
Proof. intros H. apply process_iff in H. destruct H as (x & _ & _ & ->). apply act_eff. Qed.

Lemma process_idle t orc s a : idle t s a -> process t orc s a = Ok s.
Proof.
  unfold idle, process. destruct (a_status a); intros H.
  - apply Z.leb_gt in H. rewrite H. reflexivity.
  - apply Z.leb_gt in H. rewrite H. reflexivity.
  - apply release_loop_idle. exact H.
  - reflexivity.
  - reflexivity.
Qed.

(* the walk from s to s' as auction a sees it: a is processed once, from a state that agrees with s on everything
   about a (and with s0 on the global fields), and what is about a stays as that left it *)
Definition processed_alone (t : Z) (orc : list (N * list N)) (s0 s s' : state) (a : auction) : Prop :=
  exists s1 s2, slice_eq (a_id a) s s1 /\ glob_eq s0 s1 /\ process t orc s1 a = Ok s2 /\ slice_eq (a_id a) s2 s'.

Lemma process_all_app t orc l1 : forall l2 s s',
  process_all t orc s (l1 ++ l2) = Ok s'
  <-> exists s1, process_all t orc s l1 = Ok s1 /\ process_all t orc s1 l2 = Ok s'.
Proof.
  induction l1 as [|a l1 IH]; cbn [app process_all]; intros l2 s s'.
  - split; [intros H; exists s; auto|]. intros (s1 & H1 & H2). injection H1 as <-. exact H2.
  - destruct (process t orc s a) as [s0|c tr]; cbn [bind]; [apply IH|].
    split; [discriminate|]. intros (s1 & H1 & _). discriminate H1.
Qed.

(* The walk, with no hypothesis on the list or the state: a relation that is reflexive, composes and holds of the
   processing of every auction of l holds of the whole walk. *)
Lemma process_all_chain t orc (R : state -> state -> Prop) l :
  (forall s, R s s) -> (forall s1 s2 s3, R s1 s2 -> R s2 s3 -> R s1 s3) ->
  (forall s a s', In a l -> process t orc s a = Ok s' -> R s s') ->
  forall s s', process_all t orc s l = Ok s' -> R s s'.
Proof.
  intros Rr Rt Rs. assert (K : forall l0, incl l0 l -> forall s s', process_all t orc s l0 = Ok s' -> R s s'); [|apply K, incl_refl].
  induction l0 as [|a rest IH]; cbn [process_all]; intros Hl s s' H.
  - injection H as <-. apply Rr.
  - apply bind_ok_inv in H. destruct H as (s1 & E & H).
    exact (Rt _ _ _ (Rs s a s1 (Hl a (or_introl eq_refl)) E) (IH (fun x Hx => Hl x (or_intror Hx)) s1 s' H)).
Qed.

(* what is about an auction the walk does not process stays *)
Lemma process_all_frame t orc l s s' j :
  ~ In j (map a_id l) -> process_all t orc s l = Ok s' -> slice_eq j s s'.
Proof.
  intros Hj. apply (process_all_chain t orc (slice_eq j) l); [apply slice_eq_refl|apply slice_eq_trans|].
  intros s0 a s1 Ha E. apply (pe_frame _ _ _ (process_eff _ _ _ _ _ E)). intros C. apply Hj. rewrite C. apply in_map, Ha.
Qed.

(* what a walk leaves alone whatever it does to the auctions *)
Record walk_eff (s s' : state) : Prop := {
  we_glob : glob_eq s s';
  we_bids : bids_evolve_by flag_only s s';
  we_bseq : st_bseq s' = st_bseq s;
  we_allowed : st_allowed s' = st_allowed s }.

Lemma process_all_eff t orc l s s' : process_all t orc s l = Ok s' -> walk_eff s s'.
Proof.
  apply (process_all_chain t orc walk_eff l).
  - intros s0. split; [apply glob_eq_refl|apply flag_same; reflexivity|reflexivity|reflexivity].
  - intros s1 s2 s3 [A2 A3 A4 A5] [B2 B3 B4 B5]. split.
    + eapply glob_eq_trans; eassumption.
    + eapply (bids_evolve_by_trans _ flag_only_trans); eassumption.
    + congruence.
    + congruence.
  - intros s0 a s1 _ E. destruct (process_eff _ _ _ _ _ E) as [_ P2 P3 P4 P5]. split; assumption.
Qed.

Lemma process_all_alone t orc : forall l s s',
  NoDup (map a_id l) -> process_all t orc s l = Ok s' -> forall a, In a l -> processed_alone t orc s s s' a.
Proof.
  induction l as [|a rest IH]; cbn [process_all map]; intros s s' ND H x Hx; [destruct Hx|].
  inversion ND as [|? ? Hn ND']; subst. apply bind_ok_inv in H. destruct H as (s1 & E & H).
  destruct Hx as [<-|Hx].
  - (* a itself: the rest of the walk does not touch it *)
    exists s, s1. split; [apply slice_eq_refl|]. split; [apply glob_eq_refl|]. split; [exact E|].
    exact (process_all_frame t orc rest s1 s' (a_id a) Hn H).
  - (* a later one: processing a leaves its slice and the global fields *)
    destruct (IH s1 s' ND' H x Hx) as (s2 & s3 & A1 & A2 & A3 & A4). pose proof (process_eff _ _ _ _ _ E) as PE.
    exists s2, s3. split; [|split; [|split; assumption]].
    + eapply slice_eq_trans; [|exact A1]. apply (pe_frame _ _ _ PE). intros Heq. apply Hn. rewrite <- Heq. apply in_map, Hx.
    + eapply glob_eq_trans; [exact (pe_glob _ _ _ PE)|exact A2].
Qed.

(* The walk over auctions of the store, forward.  G: what every state of the walk satisfies; V: what each auction still
   to come brings along, kept while others are processed; P: any statement about the state and the auctions still to
   be processed, the result of the walk included, successful or not.  The step learns that the record processed is the
   stored one and that it does not come again. *)
Section Walk.
Variables (t : Z) (orc : list (N * list N)).
Variable G : state -> Prop.
Variable V : state -> auction -> Prop.
Variable P : state -> list auction -> Prop.
Hypothesis G_step : forall s a s1, G s -> find_auction s (a_id a) = Some a -> V s a -> process t orc s a = Ok s1 -> G s1.
Hypothesis V_kept : forall s a s1 x, process t orc s a = Ok s1 -> a_id x <> a_id a -> V s x -> V s1 x.
Hypothesis P_nil : forall s, G s -> P s [].
Hypothesis P_cons : forall s a rest,
  G s -> find_auction s (a_id a) = Some a -> V s a -> ~ In (a_id a) (map a_id rest) ->
  (forall s1, process t orc s a = Ok s1 -> P s1 rest) -> P s (a :: rest).

Theorem process_all_walk : forall l s,
  G s -> NoDup (map a_id l) -> (forall a, In a l -> find_auction s (a_id a) = Some a) ->
  (forall a, In a l -> V s a) -> P s l.
Proof.
  induction l as [|a rest IH]; intros s Gs ND Hl HV; [apply P_nil, Gs|].
  cbn [map] in ND. inversion ND as [|? ? Hn ND']; subst.
  pose proof (Hl a (or_introl eq_refl)) as Fa. pose proof (HV a (or_introl eq_refl)) as Va.
  apply (P_cons s a rest Gs Fa Va Hn). intros s1 E.
  assert (Hne : forall x, In x rest -> a_id x <> a_id a).
  { intros x Hx C. apply Hn. rewrite <- C. apply in_map, Hx. }
  apply IH; [exact (G_step s a s1 Gs Fa Va E)|exact ND'| |].
  - intros x Hx. pose proof (process_eff _ _ _ _ _ E) as PE.
    rewrite (se_auction _ _ _ (pe_frame _ _ _ PE _ (Hne x Hx))). apply Hl. right. exact Hx.
  - intros x Hx. apply (V_kept s a s1 x E (Hne x Hx)), HV. right. exact Hx.
Qed.
End Walk.

(* the block is the walk over the stored auctions, with the clock set *)
Lemma begin_block_eq s t orc : begin_block s t orc = process_all t orc (with_now s t) (st_auctions s).
Proof. reflexivity. Qed.

Lemma begin_block_at s t orc s' a :
  ids_ok s -> begin_block s t orc = Ok s' -> In a (st_auctions s) -> processed_alone t orc (with_now s t) s s' a.
Proof.
  intros [ND _] H Ha. rewrite begin_block_eq in H.
  destruct (process_all_alone t orc _ _ _ ND H a Ha) as (s1 & s2 & A1 & A2 & A3 & A4). exists s1, s2. split; [|auto].
  eapply slice_eq_trans; [|exact A1]. split; reflexivity.
Qed.

(* what a block at time t leaves alone whatever it does to the auctions *)
Definition block_eff (t : Z) (s s' : state) : Prop := walk_eff (with_now s t) s'.

Lemma begin_block_eff s t orc s' : begin_block s t orc = Ok s' -> block_eff t s s'.
Proof. rewrite begin_block_eq. apply process_all_eff. Qed.

(* every record is taken to the one block_rel says *)
Lemma begin_block_rel s t orc s' :
  ids_ok s -> begin_block s t orc = Ok s' ->
  forall id a, find_auction s id = Some a -> exists a', find_auction s' id = Some a' /\ block_rel t orc s a a'.
Proof.
  intros OK H id a F. pose proof (find_auction_some _ _ _ F) as [HI <-].
  destruct (begin_block_at s t orc s' a OK H HI) as (s1 & s2 & A1 & G & A3 & A4).
  apply process_iff in A3. destruct A3 as (x & C & _ & ->). exists (act_record t s1 a x). split.
  - rewrite (se_auction _ _ _ A4). apply act_find. rewrite (se_auction _ _ _ A1). exact F.
  - exact (block_rel_slice t orc s s1 a _ A1 (ge_params G) (chosen_rel _ _ _ _ _ C)).
Qed.

(* what is about an id without an auction stays *)
Lemma begin_block_absent s t orc s' :
  ids_ok s -> begin_block s t orc = Ok s' -> forall j, find_auction s j = None -> slice_eq j s s'.
Proof.
  intros OK H j F. rewrite begin_block_eq in H.
  apply slice_eq_trans with (with_now s t); [split; reflexivity|].
  apply (process_all_frame t orc (st_auctions s) _ _ j); [|exact H]. intros HI.
  apply in_map_iff in HI. destruct HI as (x & Hx & HI).
  rewrite <- Hx, (ids_ok_find s x OK HI) in F. discriminate F.
Qed.

(* and what is about an auction with nothing due *)
Lemma begin_block_idle s t orc s' :
  ids_ok s -> begin_block s t orc = Ok s' -> forall j a, find_auction s j = Some a -> idle t s a -> slice_eq j s s'.
Proof.
  intros OK H j a F Hidle. pose proof (find_auction_some _ _ _ F) as [HI <-].
  destruct (begin_block_at s t orc s' a OK H HI) as (s1 & s2 & A1 & _ & A3 & A4).
  rewrite (process_idle t orc s1 a (idle_slice t s s1 a A1 Hidle)) in A3. injection A3 as <-.
  eapply slice_eq_trans; eassumption.
Qed.

Lemma step_block s o :
  is_block o = true ->
  (fst (step s o) = BlockOk /\ begin_block s (block_time o) (block_orc o) = Ok (snd (step s o)))
  \/ ((exists c, fst (step s o) = BlockErr c) /\
      exists tr, snd (step s o) = with_trace (with_now s (block_time o)) tr).
Proof.
  destruct o as [m|id l|id u max|t orc|t orc k|from to d amt|ls|].
  all: try discriminate; intros _; cbn [step block_time block_orc].
  - destruct (begin_block s t orc) as [s'|c tr]; cbn [fst snd].
    + left. split; reflexivity.
    + right. split; [exists c; reflexivity|exists tr; reflexivity].
  - destruct (begin_block s t orc) as [s'|c tr]; cbn [fst snd].
    + destruct (Nat.ltb k (length (st_xfers s') - length (st_xfers s))); cbn [fst snd].
      * right. split; [exists E_FAULT; reflexivity|].
        exists (st_trace s). destruct s; reflexivity.
      * left. split; reflexivity.
    + right. split; [exists c; reflexivity|exists tr; reflexivity].
Qed.

Lemma step_block_ok s o :
  is_block o = true -> fst (step s o) = BlockOk -> begin_block s (block_time o) (block_orc o) = Ok (snd (step s o)).
Proof. intros B Ho. destruct (step_block s o B) as [[_ H]|[(c & Hc) _]]; [exact H|congruence]. Qed.

Lemma step_block_eff s o : ids_ok s -> is_block o = true -> block_eff (block_time o) s (snd (step s o)).
Proof.
  intros OK B. destruct (step_block s o B) as [[_ Hb]|[_ (tr & ->)]].
  - exact (begin_block_eff _ _ _ _ Hb).
  - split; [repeat split|apply flag_same; reflexivity|reflexivity|reflexivity].
Qed.

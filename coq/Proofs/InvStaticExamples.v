(* A small concrete history for the Examples of C19: two auctions, one allow-listed bidder, three accepted bids and a rejected one. *)
From Coq Require Import ZArith NArith List Bool.
From FR Require Import Dec Types Bank Match Step Genesis Model Spec.
From FR.Proofs Require Import InvDefs.
Import ListNotations.
Open Scope Z_scope.

Definition c19_params : params := {| p_cfee := [(0%N, 10)]; p_bfee := [(0%N, 1)]; p_period := 1 |}.
Definition c19_init : state :=
  init_state (fun a _ => match a with User _ => 1000000 | _ => 0 end) 100 true c19_params.

Definition c19_coin (d : N) (a : Z) : mcoin := {| mc_denom := Some d; mc_amt := Some a |}.

(* auction 0: fixed price, started at once; auction 1: batch, started at once *)
Definition c19_ops : list op :=
  [ OTx (MCreateFixed (AGood false 0) (Some P) (c19_coin 1 1000) (Some 2%N) [] 50 200);
    OTx (MCreateBatch (AGood false 1) (Some P) (Some P) (c19_coin 1 500) (Some 2%N)
           [{| ms_time := 400; ms_weight := Some P |}] 2 (Some (P / 10)) 60 300);
    OTx (MAddAllowed 0 0 (AGood false 2) (Some 100));
    OApiAdd 1 [(1%N, AGood false 2, Some 100)];
    OTx (MPlaceBid (AGood false 2) 0 1 (Some P) (c19_coin 2 30));
    OTx (MPlaceBid (AGood false 2) 1 2 (Some (2 * P)) (c19_coin 2 40));
    OTx (MPlaceBid (AGood false 2) 0 1 (Some P) (c19_coin 2 20));
    OTx (MPlaceBid (AGood false 2) 0 1 (Some P) (c19_coin 2 500));   (* over the bidder's maximum: rejected *)
    OBlock 210 [] ].

Definition c19_s : state := run c19_init c19_ops.

(* Checker link for C16: the executable monitor Checkers.c16_ok (published results: matched flags, matched length
   and matched price of a settled batch auction; the flag of a fixed price bid; released flag = paid) holds of
   every transition the model makes from a state satisfying the invariant; so does c16_genesis (matched and
   released flags survive an export / import, by GenesisImport.genesis_step), and with it c16_all. *)
From Coq Require Import ZArith NArith List Bool Lia.
From FR Require Import Types Match Step Model Spec Checkers.
From FR.Proofs Require Import InvDefs FrameFacts BlockFacts BlockWalk VestingFacts HookBase Ledger LedgerCharges LedgerSettle.
From FR.Proofs Require LifeTheorems DecFacts EscrowBlock InvStaticBase VestingInv MatchBase PublishFacts LedgerVesting.
From FR.Proofs Require Import ListFacts EqbFacts ChkSettle Chk09 InvAll FixedFacts GenesisImport.
Import ListNotations.
Open Scope Z_scope.

Definition keyp (k : vq) (v : vq) : bool := N.eqb (v_auction v) (v_auction k) && (v_time v =? v_time k).

Definition c16_vest_id (t : trans) (id : N) : bool :=
  let newly := filter (fun v' =>
                 v_released v' &&
                 match find (fun v => N.eqb (v_auction v) (v_auction v') && (v_time v =? v_time v')) (st_vqs (t_pre t)) with
                 | Some v => negb (v_released v)
                 | None => true
                 end) (vqs_of (t_post t) id) in
  match t_op t with
  | OGenesis => true
  | _ =>
    zeqb_list (filter (fun z => negb (z =? 0)) (map v_amt newly))
              (map x_amt (filter (fun x => addr_eqb (x_from x) (Escrow Vesting id)) (t_xfers t)))
    && forallb (fun v => match find (fun v' => N.eqb (v_auction v) (v_auction v') && (v_time v =? v_time v')) (st_vqs (t_post t)) with
                         | Some v' => negb (v_released v) || v_released v'
                         | None => false
                         end) (vqs_of (t_pre t) id)
  end.

Definition c16_settle_part (t : trans) : bool :=
  forallb (fun p =>
    let a := fst p in let a' := snd p in
    let id := a_id a in
    let bs' := bids_of (t_post t) id in
    match a_type a with
    | Batch =>
        forallb (fun u => N.eqb u (a_auctioneer a) ||
                          Bool.eqb (existsb (fun b => N.eqb (b_bidder b) u && b_matched b) bs')
                                   (0 <? received t id (a_sell_denom a) u)) users
        && forallb (fun b => negb (b_matched b) || (a_matched_price a' <=? b_price b)) bs'
        && (st_mlen (t_post t) id =? Z.of_nat (length (filter b_matched bs')))
        && Bool.eqb (a_matched_price a' =? 0) (forallb (fun b => negb (b_matched b)) bs')
    | FixedPrice =>
        forallb (fun b => Bool.eqb (b_matched b) (0 <? sell_amount (a_pay_denom a) b)) bs'
    end) (settling t).

Definition c16_vest_part (t : trans) : bool :=
  forallb (c16_vest_id t) (ids_upto (st_aseq (t_post t) + 1)).

Lemma c16_ok_parts t : c16_ok t = c16_settle_part t && c16_vest_part t.
Proof. reflexivity. Qed.

Lemma forallb_negb_matched bs : forallb (fun b => negb (b_matched b)) bs = true <-> forall b, In b bs -> b_matched b = false.
Proof.
  rewrite forallb_forall. split; intros H b Hb; specialize (H b Hb); destruct (b_matched b); try reflexivity; discriminate H.
Qed.

Lemma eqb_of_iff (x y : bool) : (x = true <-> y = true) -> Bool.eqb x y = true.
Proof. destruct x, y; cbn; intros [H1 H2]; try reflexivity; [discriminate (H1 eq_refl)|discriminate (H2 eq_refl)]. Qed.

Theorem c16_settle_trans s o : Inv s -> st_xfers s = [] -> c16_settle_part (trans_of s o) = true.
Proof.
  intros I X0. unfold c16_settle_part. apply forallb_forall. intros [a a'] Hin.
  destruct (settling_trans_of s o a a' I X0 Hin) as (mi & wr & V).
  cbv zeta. cbn [fst snd]. unfold received. rewrite trans_of_eq. cbn [t_xfers t_post].
  pose proof (settles_with_wr _ _ _ _ _ _ (sv_settles V)) as Ew. destruct (a_type a) eqn:Ty.
  - (* fixed price: the bids are those of s, whose flags the invariant describes *)
    rewrite (sv_fixed V Ew).
    apply forallb_forall. intros b Hb. apply InvStaticBase.bids_of_in in Hb. destruct Hb as [Hb Eau].
    destruct (inv_bids _ I) as [W _]. rewrite Forall_forall in W.
    destruct (bwf_auction _ _ (W b Hb)) as (a0 & Fa0 & Hm & _).
    rewrite Eau, (sv_pre V) in Fa0. injection Fa0 as <-.
    rewrite Ty in Hm. destruct Hm as (_ & _ & _ & Hm). rewrite Hm. apply Bool.eqb_reflx.
  - destruct (sv_batch V Ew) as (-> & Pb & Fl & Pm).
    pose proof (PublishFacts.fl_alloc _ _ Fl) as Pal.
    apply andb_true_iff. split; [apply andb_true_iff; split; [apply andb_true_iff; split|]|].
    + apply forallb_forall. intros u _. destruct (N.eqb u (a_auctioneer a)) eqn:Eu; [reflexivity|]. cbn [orb].
      rewrite (sv_received V u), (N.eqb_sym (a_auctioneer a) u), Eu, Z.add_0_r.
      apply eqb_of_iff. rewrite existsb_exists, Z.ltb_lt. split.
      * intros (b & Hb & Hbm). apply andb_true_iff in Hbm. destruct Hbm as [Hu Hm]. apply N.eqb_eq in Hu.
        assert (Hal : 0 < mi_alloc mi u) by (apply Pal; exists b; auto).
        assert (Hbd : existsb (N.eqb u) (bidders_of (bids_of s (a_id a))) = true).
        { apply existsb_exists. exists u. split; [|apply N.eqb_refl]. apply MatchBase.bidders_of_in.
          rewrite Pb in Hb. apply in_map_iff in Hb. destruct Hb as (b0 & <- & Hb0). exists b0. split; [exact Hb0|exact Hu]. }
        rewrite Hbd. exact Hal.
      * intros Hpos. destruct (existsb (N.eqb u) (bidders_of (bids_of s (a_id a)))); [|lia].
        apply Pal in Hpos. destruct Hpos as (b & Hb & Hu & Hm). exists b. split; [exact Hb|].
        rewrite Hu, N.eqb_refl, Hm. reflexivity.
    + apply forallb_forall. intros b Hb. destruct (b_matched b) eqn:Hm; [|reflexivity]. cbn [negb orb].
      apply Z.leb_le. apply (PublishFacts.fl_price _ _ Fl); assumption.
    + apply Z.eqb_eq. rewrite Pm, (PublishFacts.fl_count _ _ Fl). reflexivity.
    + apply eqb_of_iff. rewrite Z.eqb_eq, forallb_negb_matched. exact (PublishFacts.fl_none _ _ Fl).
Qed.

Lemma find_by_key l v k :
  NoDup (map vkey l) -> In v l -> vkey k = vkey v ->
  find (fun x => N.eqb (v_auction x) (v_auction k) && (v_time x =? v_time k)) l = Some v.
Proof.
  intros ND Hv Ek. apply ListFacts.find_unique; [exact Hv|apply (same_key_eq v k); symmetry; exact Ek|].
  intros y Hy Py. apply (same_key_eq y k) in Py.
  apply (ListFacts.NoDup_map_inj vkey l y v ND Hy Hv). rewrite Py. exact Ek.
Qed.

Lemma find_by_key' l v k :
  NoDup (map vkey l) -> In v l -> vkey k = vkey v ->
  find (fun x => N.eqb (v_auction k) (v_auction x) && (v_time k =? v_time x)) l = Some v.
Proof.
  intros ND Hv Ek. rewrite <- (find_by_key l v k ND Hv Ek). apply ListFacts.find_ext. intros x _.
  rewrite (N.eqb_sym (v_auction k)), (Z.eqb_sym (v_time k)). reflexivity.
Qed.

(* what a transition does to the queue vs of auction id, fv being its transfers out of the vesting escrow of id *)
Inductive vq_rel (id : N) (vs vs' : list vq) (fv : list xfer) : Prop :=
| VR_idle : vs' = vs -> fv = [] -> vq_rel id vs vs' fv
| VR_settle : vs = [] -> (forall v, In v vs' -> v_released v = false) -> fv = [] -> vq_rel id vs vs' fv
| VR_release a t : vs' = map (release_vq id t) vs -> fv = rel_xfers a t vs -> vq_rel id vs vs' fv.

Lemma c16_vest_id_ok t id :
  NoDup (map vkey (st_vqs (t_pre t))) -> NoDup (map vkey (st_vqs (t_post t))) ->
  vq_rel id (vqs_of (t_pre t) id) (vqs_of (t_post t) id) (filter (LedgerVesting.vout id) (t_xfers t)) ->
  c16_vest_id t id = true.
Proof.
  intros ND ND' R. unfold c16_vest_id. apply not_genesis_match. intros _. fold (LedgerVesting.vout id).
  set (C := fun v' : vq => v_released v' &&
                 match find (fun v => N.eqb (v_auction v) (v_auction v') && (v_time v =? v_time v')) (st_vqs (t_pre t)) with
                 | Some v => negb (v_released v) | None => true end).
  set (D := fun v : vq => match find (fun v' => N.eqb (v_auction v) (v_auction v') && (v_time v =? v_time v')) (st_vqs (t_post t)) with
                         | Some v' => negb (v_released v) || v_released v' | None => false end).
  pose proof (fun v => proj1 (VestingInv.vqs_of_in (t_pre t) id v)) as Hpre.
  pose proof (fun v => proj1 (VestingInv.vqs_of_in (t_post t) id v)) as Hpost.
  cbv zeta. destruct R as [Ev Ef|Ev Hun Ef|a tm Ev Ef].
  - (* idle *)
    rewrite Ef. rewrite Ev in *.
    assert (En : filter C (vqs_of (t_pre t) id) = []).
    { apply ListFacts.filter_nil_iff. intros v Hv. unfold C. destruct (Hpre v Hv) as [Hin _].
      rewrite (find_by_key _ v v ND Hin eq_refl). destruct (v_released v); reflexivity. }
    rewrite En. cbn [map filter]. rewrite (zeqb_list_refl []). cbn [andb].
    apply forallb_forall. intros v Hv. unfold D. destruct (Hpost v Hv) as [Hin _].
    rewrite (find_by_key' _ v v ND' Hin eq_refl). destruct (v_released v); reflexivity.
  - (* settle *)
    rewrite Ef, Ev.
    assert (En : filter C (vqs_of (t_post t) id) = []).
    { apply ListFacts.filter_nil_iff. intros v Hv. unfold C. rewrite (Hun v Hv). reflexivity. }
    rewrite En. reflexivity.
  - (* release *)
    rewrite Ef. rewrite Ev in *.
    assert (En : filter C (map (release_vq id tm) (vqs_of (t_pre t) id))
                 = map (release_vq id tm) (due_of tm (vqs_of (t_pre t) id))).
    { rewrite filter_map_swap. f_equal. unfold due_of. apply filter_ext_in. intros v Hv. unfold C.
      destruct (Hpre v Hv) as [Hin Hau].
      rewrite (find_by_key _ v (release_vq id tm v) ND Hin (release_vq_key id tm v)), release_vq_flag, Hau, N.eqb_refl.
      unfold vq_due. cbn [andb]. destruct (v_released v), (v_time v <=? tm); reflexivity. }
    rewrite En, map_map.
    rewrite (map_ext (fun x => v_amt (release_vq id tm x)) v_amt) by (intros v; apply (release_vq_fields id tm v)).
    unfold rel_xfers, paid_of. rewrite map_map. cbn [xfer_of x_amt]. rewrite filter_map_swap, zeqb_list_refl. cbn [andb].
    apply forallb_forall. intros v Hv. unfold D. destruct (Hpre v Hv) as [Hin Hau].
    assert (Hin' : In (release_vq id tm v) (st_vqs (t_post t))).
    { apply (Hpost (release_vq id tm v)). apply in_map. exact Hv. }
    rewrite (find_by_key' _ (release_vq id tm v) v ND' Hin' (eq_sym (release_vq_key id tm v))), release_vq_flag.
    destruct (v_released v); reflexivity.
Qed.

(* no transfer of a settlement leaves a vesting escrow: all but the last are plain, the last leaves the paying escrow *)
Lemma settle_xfers_novest s a mi wr : Forall (fun x => forall j, LedgerVesting.vout j x = false) (settle_xfers s a mi wr).
Proof.
  destruct (LedgerVesting.settle_xfers_plain s a mi wr) as (ys & -> & Hys). apply Forall_app. split.
  - eapply Forall_impl; [|exact Hys]. intros x Hx j. apply (Hx j).
  - apply Forall_send_xf. intros j. reflexivity.
Qed.

Lemma block_vq_rel s t orc s' id :
  Inv s -> st_xfers s = [] -> begin_block s t orc = Ok s' ->
  vq_rel id (vqs_of s id) (vqs_of s' id) (filter (LedgerVesting.vout id) (st_xfers s')).
Proof.
  intros I X0 H. destruct (find_auction s id) as [a|] eqn:Fa.
  - pose proof Fa as Fa0. apply find_auction_some in Fa0. destruct Fa0 as [Ha <-].
    destruct (block_view_holds s t orc s' a I H Ha) as (x & V).
    rewrite (bv_local V (LedgerVesting.vout (a_id a)) (from_src Vesting (a_id a))), X0, (bv_vqs V). cbn [filter app].
    (* a settlement finds the queue empty, appends unreleased instalments and pays nothing out of the vesting escrow *)
    assert (Settle : forall mi wr, a_status a = Started ->
              vq_rel (a_id a) (vqs_of s (a_id a)) (vqs_of s (a_id a) ++ new_vqs a (proceeds_of s a mi wr))
                     (filter (LedgerVesting.vout (a_id a)) (settle_xfers s a mi wr))).
    { intros mi wr St. rewrite (EscrowBlock.started_no_vqs s a I Fa St). apply VR_settle; [reflexivity| |].
      - intros v Hv. unfold new_vqs in Hv. destruct (a_scheds a); [destruct Hv|].
        exact (proj1 (ListFacts.filter_nil_iff _ _) (LedgerVesting.split_unreleased a _ _) v Hv).
      - apply ListFacts.filter_nil_iff. intros y Hy.
        pose proof (settle_xfers_novest s a mi wr) as F. rewrite Forall_forall in F. apply F, Hy. }
    pose proof (bv_chosen V) as C. destruct C as [_|_ _|St _ _|mi St _ _ _|_].
    + apply VR_idle; reflexivity.
    + apply VR_idle; reflexivity.
    + apply Settle, St.
    + destruct (decision s a mi); [apply VR_idle; reflexivity|apply Settle, St].
    + eapply VR_release; [reflexivity|]. cbn [act_xfers].
      exact (rel_xfers_vout a t _).
  - destruct (block_absent s t orc s' id I H Fa) as (S & xs & X & F). apply VR_idle; [exact (se_vqs _ _ _ S)|].
    rewrite X, X0. exact (filter_not_from id _ xs (from_src Vesting id) F).
Qed.

Theorem c16_vest_trans s o : Inv s -> st_xfers s = [] -> c16_vest_part (trans_of s o) = true.
Proof.
  intros I X0. unfold c16_vest_part. apply forallb_forall. intros id _.
  rewrite trans_of_eq. apply c16_vest_id_ok; cbn [t_pre t_post t_xfers].
  - exact (VestingInv.vqs_wf_nodup s (inv_vqs _ I)).
  - exact (VestingInv.vqs_wf_nodup _ (inv_vqs _ (InvAll.Inv_step s o I))).
  - destruct (FrameFacts.is_block o) eqn:B.
    + destruct (step_block s o B) as [[_ K2]|[_ (tr & ->)]].
      * apply (block_vq_rel s _ _ _ id I X0 K2).
      * apply VR_idle; [reflexivity|]. cbn [st_xfers with_trace with_now]. rewrite X0. reflexivity.
    + apply VR_idle; [apply nonblock_vqs_of; assumption|apply nonblock_no_vout; assumption].
Qed.

Theorem c16_ok_trans s o : Inv s -> st_xfers s = [] -> c16_ok (trans_of s o) = true.
Proof. intros I X0. rewrite c16_ok_parts, (c16_settle_trans s o I X0), (c16_vest_trans s o I X0). reflexivity. Qed.

Lemma c16_ok_pre s o : c16_ok (model_trans s o) = c16_ok (trans_of (FixedFacts.ghost_reset s) o).
Proof.
  (* the two transitions differ in t_pre only (s, resp. s with its logs emptied), of which the checker reads no log *)
  rewrite FixedFacts.model_trans_eq, trans_of_eq. reflexivity.
Qed.

Theorem c16_ok_model s o : Inv s -> c16_ok (model_trans s o) = true.
Proof.
  intros I. rewrite c16_ok_pre. apply c16_ok_trans; [apply FixedFacts.Inv_ghost_reset, I|reflexivity].
Qed.

Theorem c16_genesis_model s o : Inv s -> c16_genesis (model_trans s o) = true.
Proof.
  intros I. rewrite model_trans_eq. cbv zeta. unfold c16_genesis. cbn [t_op t_class t_pre t_post].
  destruct o as [m|id l|id u max|t orc|t orc k|from to d amt|ls|]; try reflexivity.
  destruct (genesis_step (ghost_reset s) (Inv_ghost_reset s I)) as (s' & E & SS). rewrite E. cbn [fst snd class_of].
  apply forallb_forall. intros id _.
  rewrite (ss_vqs_of _ _ SS id), (ss_bids_of _ _ SS id).
  change (vqs_of (ghost_reset s) id) with (vqs_of s id). change (bids_of (ghost_reset s) id) with (bids_of s id).
  rewrite (list_eqb_refl vq_eqb) by (intros; apply vq_eqb_refl).
  rewrite (list_eqb_refl bid_eqb) by (intros; apply bid_eqb_refl). reflexivity.
Qed.

Theorem c16_all_model s o : Inv s -> c16_all (model_trans s o) = true.
Proof.
  intros I. unfold c16_all. rewrite (c16_ok_model s o I), (c16_genesis_model s o I). reflexivity.
Qed.

(* C15: `state_same` is a congruence for BeginBlocker and hence for every operation (GENESIS itself under Inv,
   step_congr; the others unconditionally, step_congr_nogen); a history without a further GENESIS continued on the re-imported
   state has the same outcomes and stays related (genesis_evolves). *)
From Coq Require Import ZArith NArith List Bool Arith.
From FR Require Import Dec Types Match Step Model.
From FR.Proofs Require Import InvDefs GenesisImport GenesisInv GenesisCongr.
From FR.Proofs Require MatchBatch TxFacts.
Import ListNotations.
Open Scope Z_scope.

Lemma same_allocate s s' a mi w : state_same s s' -> res_same (allocate s a mi w) (allocate s' a mi w).
Proof.
  intros H. unfold allocate. bind_step same_call_hook as s1 s1' H1. apply same_pay_out. exact H1.
Qed.

Lemma same_refund_selling s s' a : state_same s s' -> res_same (refund_selling s a) (refund_selling s' a).
Proof. intros H. unfold refund_selling. rewrite (ss_bal _ _ H). apply same_send. exact H. Qed.

Lemma same_apply_vesting s s' a : state_same s s' -> res_same (apply_vesting s a) (apply_vesting s' a).
Proof.
  intros H. unfold apply_vesting. rewrite (ss_bal _ _ H).
  destruct (a_scheds a) as [|v vs].
  - bind_step same_send as s1 s1' H1. apply same_put_auction. exact H1.
  - bind_step same_send as s1 s1' H1. apply same_put_auction. apply same_append_vqs. exact H1.
Qed.

Lemma same_close_fixed s s' a : state_same s s' -> res_same (close_fixed s a) (close_fixed s' a).
Proof.
  intros H. unfold close_fixed. rewrite (ss_bids_of _ _ H).
  bind_step same_allocate as s1 s1' H1. bind_step same_refund_selling as s2 s2' H2.
  apply same_apply_vesting. exact H2.
Qed.

Lemma same_settle_batch s s' a mi : state_same s s' -> res_same (settle_batch s a mi) (settle_batch s' a mi).
Proof.
  intros H. unfold settle_batch.
  bind_step same_allocate as s1 s1' H1. bind_step same_refund_selling as s2 s2' H2.
  bind_step same_pay_out as s3 s3' H3. apply same_apply_vesting. exact H3.
Qed.

Lemma same_extend_round s s' a : state_same s s' -> res_same (extend_round s a) (extend_round s' a).
Proof.
  intros H. unfold extend_round. rewrite (ss_params _ _ H). apply same_put_auction. exact H.
Qed.

Lemma same_close_batch s s' orc a : state_same s s' -> res_same (close_batch s orc a) (close_batch s' orc a).
Proof.
  intros H. unfold close_batch. rewrite (ss_bids_of _ _ H), (ss_mlen _ _ H).
  destruct (valid_order (bids_of s (a_id a))
              match find (fun x => N.eqb (fst x) (a_id a)) orc with Some (_, l) => l | None => [] end)
    as [order|]; [|apply fail_rel; exact H].
  rewrite (MatchBatch.calc_batch_ext a (bids_of s (a_id a)) order (allowed_of s' (a_id a)) (allowed_of s (a_id a)))
    by (apply (ss_caps _ _ H)).
  destruct (calc_batch a (bids_of s (a_id a)) order (allowed_of s (a_id a))) as [mi|]; [|apply fail_rel; exact H].
  pose proof (same_set_flags _ _ (a_id a) (mi_matched mi) H) as Hf.
  destruct (N.eqb (a_max_round (set_matched_price a (mi_price mi)) + 1)
                  (N.of_nat (length (a_ends (set_matched_price a (mi_price mi)))))).
  - apply same_settle_batch. exact Hf.
  - destruct (st_mlen s (a_id a) =? 0); [apply same_extend_round; exact Hf|].
    destruct (extend_rule (Z.of_nat (length (mi_matched mi))) (st_mlen s (a_id a))
                          (a_rate (set_matched_price a (mi_price mi)))).
    + apply same_extend_round. exact Hf.
    + apply same_settle_batch. exact Hf.
Qed.

Lemma same_release_loop a t vs : forall s s', state_same s s' ->
  res_same (release_loop s a t vs) (release_loop s' a t vs).
Proof.
  induction vs as [|v rest IH]; intros s s' H.
  - exact H.
  - cbn [release_loop]. destruct ((v_time v <=? t) && negb (v_released v)); [|apply IH; exact H].
    bind_step same_send as s1 s1' H1.
    assert (state_same
      (with_vqs s1 (map (fun x => if N.eqb (v_auction x) (v_auction v) && (v_time x =? v_time v)
                                  then set_v_released x true else x) (st_vqs s1)))
      (with_vqs s1' (map (fun x => if N.eqb (v_auction x) (v_auction v) && (v_time x =? v_time v)
                                   then set_v_released x true else x) (st_vqs s1')))) as H2.
    { apply same_map_vqs; [exact H1|]. intros x.
      destruct (N.eqb (v_auction x) (v_auction v) && (v_time x =? v_time v)); reflexivity. }
    apply IH. destruct rest; [apply same_put_auction|]; exact H2.
Qed.

Lemma same_process t orc s s' a : state_same s s' -> res_same (process t orc s a) (process t orc s' a).
Proof.
  intros H. unfold process. destruct (a_status a).
  - destruct (a_start a <=? t); [apply same_put_auction|]; exact H.
  - destruct (last_end a <=? t); [|exact H].
    destruct (a_type a); [apply same_close_fixed|apply same_close_batch]; exact H.
  - rewrite (ss_vqs_of _ _ H). apply same_release_loop. exact H.
  - exact H.
  - exact H.
Qed.

Lemma same_process_all t orc l : forall s s', state_same s s' ->
  res_same (process_all t orc s l) (process_all t orc s' l).
Proof.
  induction l as [|a rest IH]; intros s s' H.
  - exact H.
  - cbn [process_all]. apply (bind_rel state_same); [apply same_process; exact H|].
    intros s1 s1' H1. apply IH. exact H1.
Qed.

Lemma same_begin_block s s' t orc : state_same s s' -> res_same (begin_block s t orc) (begin_block s' t orc).
Proof.
  intros H. unfold begin_block. pose proof (same_with_now _ _ H t) as Hn.
  rewrite (ss_auctions _ _ Hn). apply same_process_all. exact Hn.
Qed.

Lemma same_block_out s s' t orc (k k' : state -> outcome * state) : state_same s s' ->
  (forall x y, state_same x y -> out_same (k x) (k' y)) ->
  out_same match begin_block s t orc with Ok x => k x | Err c tr => (BlockErr c, with_trace (with_now s t) tr) end
           match begin_block s' t orc with Ok y => k' y | Err c tr => (BlockErr c, with_trace (with_now s' t) tr) end.
Proof.
  intros H Hk. pose proof (same_begin_block s s' t orc H) as Hb.
  destruct (begin_block s t orc) as [x|c tr], (begin_block s' t orc) as [y|c' tr']; cbn in Hb; try contradiction.
  - apply Hk. exact Hb.
  - destruct Hb as [-> ->]. split; [reflexivity|]. cbn [snd].
    apply same_with_trace. apply same_with_now. exact H.
Qed.

Theorem step_congr_nogen s s' o : o <> OGenesis -> state_same s s' -> out_same (step s o) (step s' o).
Proof.
  intros Ho H. destruct o as [m|a l|a u max|t orc|t orc k|from to d amt|ls|]; cbn [step].
  - apply same_deliver_tx. exact H.
  - apply same_commit; [exact H|apply same_api_add; exact H].
  - apply same_commit; [exact H|apply same_api_update; exact H].
  - apply same_block_out; [exact H|]. intros x y Hb. split; [reflexivity|exact Hb].
  - apply same_block_out; [exact H|]. intros x y Hb. rewrite (ss_xfers _ _ Hb), (ss_xfers _ _ H).
    destruct (Nat.ltb k (length (st_xfers x) - length (st_xfers s))).
    + split; [reflexivity|]. cbn [snd]. apply same_with_now. exact H.
    + split; [reflexivity|exact Hb].
  - apply same_commit; [exact H|]. destruct (0 <? amt); [apply same_send|apply fail_rel]; exact H.
  - split; [reflexivity|]. cbn [snd]. apply same_with_listeners. exact H.
  - contradiction.
Qed.

Theorem step_congr s s' o : Inv s -> state_same s s' -> out_same (step s o) (step s' o).
Proof.
  intros I H. destruct o; try (apply step_congr_nogen; [discriminate|exact H]).
  destruct (genesis_step s I) as [s1 [E1 H1]].
  destruct (genesis_step s' (state_same_inv s s' H I)) as [s1' [E1' H1']].
  rewrite E1, E1'. split; [reflexivity|]. cbn [snd].
  apply (state_same_trans s1 s s1'); [apply state_same_sym; exact H1|].
  apply (state_same_trans s s' s1'); assumption.
Qed.

Fixpoint outcomes (s : state) (ops : list op) : list outcome :=
  match ops with
  | [] => []
  | o :: rest => fst (step s o) :: outcomes (snd (step s o)) rest
  end.

Lemma outcomes_nth d : forall ops s,
  map (fun k => fst (step (run s (firstn k ops)) (nth k ops d))) (seq 0 (length ops)) = outcomes s ops.
Proof.
  induction ops as [|o rest IH]; intros s; [reflexivity|].
  cbn [length seq map outcomes]. f_equal. rewrite <- seq_shift, map_map, <- IH. reflexivity.
Qed.

(* outcomes and final state of a history in one pass, each step taken once *)
Fixpoint run_outs (s : state) (ops : list op) : list outcome * state :=
  match ops with
  | [] => ([], s)
  | o :: rest => let x := step s o in let y := run_outs (snd x) rest in (fst x :: fst y, snd y)
  end.

Lemma run_outs_eq ops : forall s, run_outs s ops = (outcomes s ops, run s ops).
Proof.
  induction ops as [|o rest IH]; intros s; [reflexivity|].
  cbn [run_outs outcomes]. rewrite IH, TxFacts.run_cons. reflexivity.
Qed.

Theorem run_congr_nogen ops : forall s s', Forall (fun o => o <> OGenesis) ops -> state_same s s' ->
  outcomes s ops = outcomes s' ops /\ state_same (run s ops) (run s' ops).
Proof.
  induction ops as [|o rest IH]; intros s s' Hops H.
  - split; [reflexivity|exact H].
  - apply Forall_cons_iff in Hops. destruct Hops as [Ho Hrest].
    destruct (step_congr_nogen s s' o Ho H) as [Eo Hs].
    destruct (IH _ _ Hrest Hs) as [Eos Hrun].
    cbn [outcomes]. rewrite !TxFacts.run_cons. split; [|exact Hrun]. rewrite Eo, Eos. reflexivity.
Qed.

(* the states stay related, so every later query answers the same (run_query_same) *)
Theorem genesis_evolves s ops : Inv s -> Forall (fun o => o <> OGenesis) ops ->
  fst (step s OGenesis) = GenOk true
  /\ outcomes (snd (step s OGenesis)) ops = outcomes s ops
  /\ state_same (run s ops) (run (snd (step s OGenesis)) ops).
Proof.
  intros I Hops. destruct (genesis_step s I) as [s1 [E1 H1]]. rewrite E1. cbn [fst snd].
  split; [reflexivity|].
  destruct (run_congr_nogen ops s s1 Hops H1) as [Eo Hr]. split; [symmetry; exact Eo|exact Hr].
Qed.

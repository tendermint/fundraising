(* C16: nothing changes the bids of a fixed price auction once they are stored: every operation other than GENESIS
   leaves them alone or appends one new bid whose flag says whether it bought anything.  (GENESIS keeps the bids of
   every auction if the invariant holds: GenesisImport.genesis_step, ss_bids_of.) *)
From Coq Require Import ZArith NArith List.
From FR Require Import Types Match Step Model.
From FR.Proofs Require Import FrameFacts TxFacts BlockFacts BlockWalk VestingFacts PublishFacts.
Import ListNotations.
Open Scope Z_scope.

Lemma process_fixed_keeps t orc s a s' :
  a_type a = FixedPrice -> process t orc s a = Ok s' -> st_bids s' = st_bids s.
Proof.
  intros T H. apply process_iff in H. destruct H as (x & C & _ & ->). rewrite act_state_eq.
  destruct C as [C|St L|St L Ty|mi St L Ty M|St]; try congruence; reflexivity.
Qed.

Lemma block_fixed_bids s t orc s' id a :
  ids_ok s -> find_auction s id = Some a -> a_type a = FixedPrice ->
  begin_block s t orc = Ok s' -> bids_of s' id = bids_of s id.
Proof.
  intros OK F T H. rewrite begin_block_eq in H.
  destruct OK as [ND _].
  pose proof (find_auction_some _ _ _ F) as [HI <-].
  destruct (process_all_alone t orc _ _ _ ND H a HI) as (s1 & s2 & A1 & _ & A3 & A4).
  rewrite (se_bids _ _ _ A4). unfold bids_of at 1. rewrite (process_fixed_keeps _ _ _ _ _ T A3).
  fold (bids_of s1 (a_id a)). rewrite (se_bids _ _ _ A1). reflexivity.
Qed.

Definition fixed_bid_ok (a : auction) (nb : bid) : Prop :=
  b_auction nb = a_id a /\ b_type nb = BFixed /\ b_matched nb = (0 <? sell_amount (a_pay_denom a) nb)
  /\ (b_denom nb = a_pay_denom a \/ b_denom nb = a_sell_denom a) /\ b_price nb = a_start_price a.

Theorem fixed_bids_stable s o id a :
  ids_ok s -> o <> OGenesis -> find_auction s id = Some a -> a_type a = FixedPrice ->
  bids_of (snd (step s o)) id = bids_of s id
  \/ exists nb, bids_of (snd (step s o)) id = bids_of s id ++ [nb] /\ fixed_bid_ok a nb.
Proof.
  intros OK Hg F T. rename id into j. pose proof (find_auction_some _ _ _ F) as [_ Hj].
  destruct (is_block o) eqn:B.
  { left. destruct (step_block s o B) as [[_ H]|[_ (tr & ->)]]; [|reflexivity].
    eapply block_fixed_bids; eassumption. }
  pose proof (step_shape s o B Hg) as Sh. pose proof (fun tid => tx_frame s o _ _ tid Sh) as Fr.
  revert Sh Fr. generalize (fst (step s o)) (snd (step s o)). intros out s' Sh Fr. clear B.
  (* what does not touch the bids of j: any operation on another auction, by the frame *)
  assert (Other : forall id0, target s o = Some id0 -> id0 <> j -> bids_of s' j = bids_of s j).
  { intros id0 T0 Hne. apply (se_bids _ _ _ (Fr id0 T0 j (not_eq_sym Hne))). }
  (* shape_cases (TxFacts) names what each case has: here F0 (the auction found), V (the validation), nb of SPlace *)
  shape_cases Sh; try (left; reflexivity).
  - (* a fixed price bid *)
    destruct (N.eq_dec id j) as [->|Hne]; [|left; exact (Other id eq_refl Hne)].
    rewrite F in F0. injection F0 as <-. right. eexists. split.
    + unfold bids_of. cbn [st_bids with_bids]. rewrite filter_app. cbn [filter b_auction set_b_matched].
      change (b_auction nb) with j. rewrite N.eqb_refl. reflexivity.
    + destruct V as (_ & Dn & Pr & _). repeat split; try assumption. symmetry. exact Hj.
  - (* a bid by worth is placed on a batch auction *)
    left. apply (Other id eq_refl). intros ->. rewrite F in F0. injection F0 as <-. destruct V as (Tb & _). congruence.
  - left. apply (Other id eq_refl). intros ->. rewrite F in F0. injection F0 as <-. destruct V as (Tb & _). congruence.
  - (* only bids on batch auctions are modified *)
    left. apply (Other id eq_refl). intros ->. rewrite F in F0. injection F0 as <-. congruence.
Qed.

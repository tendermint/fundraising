(* Checker link for C03: the executable monitor Checkers.c03_ok holds of every transition of the model from a state
   satisfying the invariant: at the settlement of a batch auction every bidder other than the auctioneer receives -
   summed over ALL the transfers of the block out of the auction's selling escrow - exactly Spec.spec_alloc, and the
   published price is Spec.clearing_spec (0 if there is none).  ChkSettle.settling_facts + MatchBatch.calc_batch_spec_of. *)
From Coq Require Import ZArith NArith List Bool Lia.
From FR Require Import Types Match Spec Checkers.
From FR.Proofs Require Import ListFacts InvDefs ChkSettle.
From FR.Proofs Require MatchDemand MatchBatch.
Import ListNotations.
Open Scope Z_scope.

Lemma spec_alloc_not_bidder bs al supply u :
  (forall x, In x al -> 0 < al_max x) -> existsb (N.eqb u) (bidders_of bs) = false -> spec_alloc bs al supply u = 0.
Proof.
  intros Hal Ex. unfold spec_alloc. destruct (clearing_spec bs al supply) as [p|]; [|reflexivity].
  unfold demand_of. rewrite (proj2 (filter_nil_iff (fun b => N.eqb (b_bidder b) u && (p <=? b_price b)) bs)).
  - cbn [map sumZ fold_right]. pose proof (MatchDemand.cap_of_nonneg al u Hal). lia.
  - intros b Hb. rewrite (not_bidder_all bs u Ex b Hb). reflexivity.
Qed.

Theorem c03_ok_model s o : Inv s -> c03_ok (model_trans s o) = true.
Proof.
  intros I. unfold c03_ok. apply forallb_forall. intros [a a'] Hin.
  destruct (settling_facts s o a a' I Hin) as (mi & wr & V). pose proof (sv_book V) as BW. pose proof (sv_supply V) as Hsup. pose proof (sv_settles V) as Hw. pose proof (sv_batch V) as Hbat.
  cbv zeta. cbn [fst snd].
  destruct (a_type a) eqn:Ty; [reflexivity|].
  pose proof (LedgerSettle.settles_with_wr _ _ _ _ _ _ Hw) as Ew. rewrite Ty in Ew. subst wr.
  destruct (LedgerSettle.settles_with_batch _ _ _ _ _ Hw) as (_ & _ & order & HV & HC).
  destruct (Hbat eq_refl) as [Epr _]. rewrite FixedFacts.model_pre, Epr.
  pose proof (MatchBatch.calc_batch_alloc_of a _ _ order _ mi BW HV Hsup HC) as Hspec.
  pose proof (MatchBatch.calc_batch_spec_of a _ _ order _ mi BW HV Hsup HC) as Hcl.
  apply andb_true_iff. split.
  - apply forallb_forall. intros u _.
    destruct (N.eqb u (a_auctioneer a)) eqn:Eu; [reflexivity|]. cbn [orb]. apply Z.eqb_eq.
    unfold received. rewrite (sv_received V u), (N.eqb_sym (a_auctioneer a) u), Eu, Z.add_0_r.
    destruct (existsb (N.eqb u) (bidders_of (bids_of s (a_id a)))) eqn:Ex; [apply Hspec|].
    symmetry. apply spec_alloc_not_bidder; [apply (MatchDemand.wf_al_pos _ _ BW)|exact Ex].
  - apply Z.eqb_eq.
    destruct (clearing_spec (bids_of s (a_id a)) (allowed_of s (a_id a)) (a_sell_amt a)); apply Hcl.
Qed.

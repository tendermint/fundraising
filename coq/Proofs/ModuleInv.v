(* The module's own three invariants (keeper/invariants.go: selling-, paying- and vesting-pool-reserve-amount, which
   compare with >= and are never registered with the application) transcribed as predicates over the model state, and
   proved for every reachable state as corollaries of the escrow part of the global invariant.  They are strictly
   weaker than C01 (exact equality up to third-party deposits, Properties/C01.v).  Their boolean forms are what
   Checkers.c01_all adds to c01_ok; c01_all_model is the link for it. *)
From Coq Require Import ZArith List.
From FR Require Import Types Match.
From FR Require Import Checkers.
From FR.Proofs Require Import InvDefs InvAll EscrowBase FixedFacts.
From FR.Proofs Require ExcessAll.
Import ListNotations.
Open Scope Z_scope.

(* SellingPoolReserveAmountInvariant: every started auction's selling reserve holds at least the selling coin *)
Definition selling_pool_reserve_amount (s : state) : Prop :=
  forall a, In a (st_auctions s) -> a_status a = Started ->
    a_sell_amt a <= st_bal s (Escrow Selling (a_id a)) (a_sell_denom a).

(* PayingPoolReserveAmountInvariant: every auction's paying reserve holds at least the paying amounts of its bids
   (counted only while the auction is started) *)
Definition paying_pool_reserve_amount (s : state) : Prop :=
  forall a, In a (st_auctions s) ->
    (if status_eqb (a_status a) Started then sumZ (map (pay_amount (a_pay_denom a)) (bids_of s (a_id a))) else 0)
    <= st_bal s (Escrow Paying (a_id a)) (a_pay_denom a).

(* VestingPoolReserveAmountInvariant: every auction's vesting reserve holds at least its unreleased instalments
   (counted only while the auction is vesting) *)
Definition vesting_pool_reserve_amount (s : state) : Prop :=
  forall a, In a (st_auctions s) ->
    (if status_eqb (a_status a) VestingS
     then sumZ (map v_amt (filter (fun v => negb (v_released v)) (vqs_of s (a_id a)))) else 0)
    <= st_bal s (Escrow Vesting (a_id a)) (a_pay_denom a).

Theorem module_invariants_hold : forall s, Inv s ->
  selling_pool_reserve_amount s /\ paying_pool_reserve_amount s /\ vesting_pool_reserve_amount s.
Proof.
  intros s I. pose proof (inv_escrow _ I) as E.
  assert (Own := fun a Ha => escrow_inv_own s (a_id a) a E (Inv_find_in s a I Ha)). repeat split.
  - intros a Ha St. apply (Own a Ha). rewrite St. reflexivity.
  - intros a Ha. destruct (status_eqb (a_status a) Started) eqn:St; [|apply E].
    apply (Own a Ha), EqbFacts.status_eqb_eq, St.
  - intros a Ha. destruct (status_eqb (a_status a) VestingS) eqn:St; [|apply E].
    apply (Own a Ha), EqbFacts.status_eqb_eq, St.
Qed.

Lemma selling_pool_b_spec s : selling_pool_b s = true <-> selling_pool_reserve_amount s.
Proof.
  unfold selling_pool_b, selling_pool_reserve_amount. rewrite forallb_forall. split.
  - intros H a Ha St. specialize (H a Ha). rewrite St in H.
    cbn in H. apply Z.leb_le. exact H.
  - intros H a Ha. destruct (status_eqb (a_status a) Started) eqn:E; [|reflexivity]. cbn.
    apply Z.leb_le, H; [exact Ha|]. apply EqbFacts.status_eqb_eq, E.
Qed.
Lemma paying_pool_b_spec s : paying_pool_b s = true <-> paying_pool_reserve_amount s.
Proof.
  unfold paying_pool_b, paying_pool_reserve_amount. rewrite forallb_forall.
  split; intros H a Ha; specialize (H a Ha); apply Z.leb_le; exact H.
Qed.
Lemma vesting_pool_b_spec s : vesting_pool_b s = true <-> vesting_pool_reserve_amount s.
Proof.
  unfold vesting_pool_b, vesting_pool_reserve_amount. rewrite forallb_forall.
  split; intros H a Ha; specialize (H a Ha); apply Z.leb_le; exact H.
Qed.

Theorem module_invariants_b_hold s : Inv s -> module_invariants_b s = true.
Proof.
  intros I. destruct (module_invariants_hold s I) as (A & B & C). unfold module_invariants_b.
  rewrite (proj2 (selling_pool_b_spec s) A), (proj2 (paying_pool_b_spec s) B), (proj2 (vesting_pool_b_spec s) C).
  reflexivity.
Qed.

(* link for the checker c01_all evaluated by the driver on every implementation transition *)
Theorem c01_all_model s o : Inv s -> c01_all (model_trans s o) = true.
Proof.
  intros I. unfold c01_all. rewrite (ExcessAll.c01_ok_model s o I). cbn [andb].
  unfold c01_mi. rewrite model_trans_eq. cbv zeta. cbn [t_post].
  apply module_invariants_b_hold, Inv_step, Inv_ghost_reset, I.
Qed.

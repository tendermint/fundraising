(* J7: the vesting-queue part of the global invariant (InvDefs.vqs_wf), read by name (vqs_wf_nodup, vqs_wf_queue,
   vqs_wf_own, vqs_wf_sorted), is preserved by every operation other than OGenesis and by the processing of a single auction inside a
   block; queue entries only ever gain the released flag (vqs_evolve); the entries a release flags are those it pays
   (released_iff_paid, last). *)
From Coq Require Import ZArith NArith List Bool Arith Lia Sorted FinFun.
From FR Require Import Dec Types Match Step Genesis Model.
From FR.Proofs Require Import ListFacts FrameFacts TxFacts BlockFacts BlockWalk DecFacts InvDefs VestingFacts VestingRelease InvStaticBase
  InvStaticBlock LedgerSettle.
Import ListNotations.
Open Scope Z_scope.

(* what is assumed of the rest of the invariant: J1 (as ids_ok) and the schedule part of J2 *)
Definition scheds_all_wf (s : state) : Prop := Forall scheds_wf (st_auctions s).

Lemma auctions_wf_scheds s : auctions_wf s -> scheds_all_wf s.
Proof. unfold auctions_wf, scheds_all_wf. apply Forall_impl. intros a H. apply (awf_scheds a H). Qed.

Definition vest_status (a : auction) : Prop := a_status a = VestingS \/ a_status a = Finished.
Lemma not_vest_status a st : a_status a = st -> st <> VestingS -> st <> Finished -> ~ vest_status a.
Proof. intros E H1 H2 [C|C]; congruence. Qed.

Lemma scheds_ok_sorted : forall vs e prev acc, scheds_ok vs e prev acc = true ->
  StronglySorted Z.lt (map s_time vs).
Proof.
  induction vs as [|v rest IH]; intros e prev acc H; cbn [map]; [constructor|].
  pose proof H as H0. cbn [scheds_ok] in H.
  apply andb_prop in H. destruct H as [_ Hrest].
  constructor; [eapply IH; exact Hrest|].
  apply scheds_ok_times in Hrest. rewrite Forall_map. eapply Forall_impl; [|exact Hrest].
  cbn beta. intros x [_ Hx]. exact Hx.
Qed.

Lemma scheds_wf_cases a : scheds_wf a -> a_scheds a <> [] ->
  StronglySorted Z.lt (map s_time (a_scheds a))
  /\ Forall (fun v => 0 < s_weight v) (a_scheds a) /\ sumZ (map s_weight (a_scheds a)) = P.
Proof.
  intros [H|H] Hne; [contradiction|]. split; [eapply scheds_ok_sorted; exact H|].
  eapply scheds_ok_weights. exact H.
Qed.

(* the flags of a queue sorted by time are a run of true followed by a run of false: releasing flags what is due, and
   once an unflagged entry is not due neither is any later one, so the flags after the release are such a run again *)
Lemma flags_prefix_release t id : forall vs k m,
  StronglySorted Z.lt (map v_time vs) -> (forall v, In v vs -> v_auction v = id) ->
  map v_released vs = repeat true k ++ repeat false m ->
  exists k', map v_released (map (release_vq id t) vs) = repeat true k' ++ repeat false (length vs - k').
Proof.
  induction vs as [|v rest IH]; intros k m HS Hid HF.
  - exists 0%nat. reflexivity.
  - cbn [map] in HS. inversion HS as [|? ? HS' Hlt]; subst.
    assert (Hid' : forall x, In x rest -> v_auction x = id) by (intros x Hx; apply Hid; right; exact Hx).
    assert (Hnew : v_released (release_vq id t v) = v_released v || (v_time v <=? t)).
    { rewrite release_vq_flag, (Hid v (or_introl eq_refl)), N.eqb_refl. reflexivity. }
    assert (Hcons : forall k',
              map v_released (map (release_vq id t) rest) = repeat true k' ++ repeat false (length rest - k') ->
              v_released v || (v_time v <=? t) = true ->
              map v_released (map (release_vq id t) (v :: rest))
              = repeat true (S k') ++ repeat false (length (v :: rest) - S k')).
    { intros k' HF' Hv. cbn [map length repeat app Nat.sub]. rewrite Hnew, Hv, HF'. reflexivity. }
    destruct k as [|k1].
    + cbn [repeat app] in HF. destruct m as [|m1]; [discriminate HF|].
      cbn [repeat map] in HF. injection HF as Hv Hrest.
      destruct (v_time v <=? t) eqn:Et.
      * destruct (IH 0%nat m1 HS' Hid' Hrest) as (k' & HF').
        exists (S k'). apply Hcons; [exact HF'|]. apply orb_true_r.
      * exists 0%nat. cbn [repeat app]. rewrite Nat.sub_0_r. rewrite map_map.
        apply map_const_false. intros x [<-|Hx].
        -- rewrite Hnew, Hv. reflexivity.
        -- rewrite release_vq_flag.
           assert (R : v_released x = false).
           { apply (repeat_spec m1). rewrite <- Hrest. apply in_map. exact Hx. }
           assert (v_time v < v_time x).
           { rewrite Forall_forall in Hlt. apply Hlt. apply in_map. exact Hx. }
           apply Z.leb_gt in Et. assert (E2 : v_time x <=? t = false) by (apply Z.leb_gt; lia).
           rewrite R, E2, andb_false_r. reflexivity.
    + cbn [repeat app map] in HF. injection HF as Hv Hrest.
      destruct (IH k1 m HS' Hid' Hrest) as (k' & HF').
      exists (S k'). apply Hcons; [exact HF'|]. rewrite Hv. reflexivity.
Qed.

Lemma last_due_all_due t : forall vs,
  StronglySorted Z.lt (map v_time vs) -> last_due_rec t vs = true -> forall x, In x vs -> v_time x <= t.
Proof.
  induction vs as [|v rest IH]; intros HS HL x Hx; [contradiction|].
  cbn [map] in HS. inversion HS as [|? ? HS' Hlt]; subst.
  destruct rest as [|r rs].
  - destruct Hx as [<-|[]]. cbn [last_due_rec] in HL. unfold vq_due in HL.
    apply andb_true_iff in HL. destruct HL as [HL _]. apply Z.leb_le. exact HL.
  - change (last_due_rec t (v :: r :: rs)) with (last_due_rec t (r :: rs)) in HL.
    destruct Hx as [<-|Hx]; [|apply IH; assumption].
    assert (v_time r <= t) by (apply IH; [assumption|assumption|left; reflexivity]).
    rewrite Forall_forall in Hlt. specialize (Hlt (v_time r) (or_introl eq_refl)). lia.
Qed.

Lemma last_due_all_released t id vs :
  StronglySorted Z.lt (map v_time vs) -> (forall v, In v vs -> v_auction v = id) ->
  last_due_rec t vs = true -> forall x, In x vs -> v_released (release_vq id t x) = true.
Proof.
  intros HS Hid HL x Hx. rewrite release_vq_flag, (Hid x Hx), N.eqb_refl.
  pose proof (last_due_all_due t vs HS HL x Hx) as H. apply Z.leb_le in H. rewrite H. apply orb_true_r.
Qed.

Lemma vqs_wf_ext s s' : st_vqs s' = st_vqs s -> st_auctions s' = st_auctions s -> vqs_wf s -> vqs_wf s'.
Proof.
  intros HV HA (W1 & W2 & W3). unfold vqs_wf, vqs_of. rewrite HV, HA. split; [|split; [exact W2|exact W3]].
  eapply Forall_impl; [|exact W1]. intros v [Hamt (a & F & R)]. split; [exact Hamt|].
  exists a. split; [rewrite (find_auction_conv s s' _ HA); exact F|exact R].
Qed.

Lemma vqs_wf_with_now s t : vqs_wf s -> vqs_wf (with_now s t).
Proof. apply vqs_wf_ext; reflexivity. Qed.
Lemma vqs_wf_with_trace s tr : vqs_wf s -> vqs_wf (with_trace s tr).
Proof. apply vqs_wf_ext; reflexivity. Qed.

Lemma vqs_of_in s id v : In v (vqs_of s id) <-> In v (st_vqs s) /\ v_auction v = id.
Proof. unfold vqs_of. rewrite filter_In, N.eqb_eq. reflexivity. Qed.

Lemma vqs_of_ext s s' : st_vqs s' = st_vqs s -> forall id, vqs_of s' id = vqs_of s id.
Proof.
  intros E id. unfold vqs_of.
  rewrite E. reflexivity.
Qed.

(* the second and the third part of J7, by name *)
Lemma vqs_wf_nodup s : vqs_wf s -> NoDup (map vkey (st_vqs s)).
Proof. intros (_ & ND & _). exact ND. Qed.
Lemma vqs_wf_queue s a :
  vqs_wf s -> In a (st_auctions s) -> vest_status a -> a_scheds a <> [] ->
  map v_time (vqs_of s (a_id a)) = map s_time (a_scheds a)
  /\ exists k, map v_released (vqs_of s (a_id a)) = repeat true k ++ repeat false (length (a_scheds a) - k).
Proof. intros (_ & _ & W3). exact (W3 a). Qed.

(* what the first part of J7 says of an entry v of the queue of auction a *)
Record vq_own (a : auction) (v : vq) : Prop := {
  vo_amt : 0 <= v_amt v;
  vo_status : vest_status a;
  vo_auctioneer : v_auctioneer v = a_auctioneer a;
  vo_denom : v_denom v = a_pay_denom a;
  vo_time : In (v_time v) (map s_time (a_scheds a));
  vo_released : a_status a = Finished -> v_released v = true }.
Arguments vo_amt {a v}. Arguments vo_status {a v}. Arguments vo_auctioneer {a v}. Arguments vo_denom {a v}.
Arguments vo_time {a v}. Arguments vo_released {a v}.

Lemma vqs_wf_own s id a v : vqs_wf s -> find_auction s id = Some a -> In v (vqs_of s id) -> vq_own a v.
Proof.
  intros (W & _) F Hv. apply vqs_of_in in Hv. destruct Hv as [Hv <-]. rewrite Forall_forall in W.
  destruct (W v Hv) as [Hamt (x & Fx & St & Eau & Ed & Ht & Hr)]. rewrite F in Fx. injection Fx as <-.
  constructor; assumption.
Qed.

Lemma vqs_wf_no_queue s id a : vqs_wf s -> find_auction s id = Some a -> ~ vest_status a -> vqs_of s id = [].
Proof.
  intros W F Na. destruct (vqs_of s id) as [|v r] eqn:E; [reflexivity|].
  assert (Hv : In v (vqs_of s id)) by (rewrite E; left; reflexivity).
  destruct Na. exact (vo_status (vqs_wf_own s id a v W F Hv)).
Qed.

(* the queue of a stored auction carries increasing times: it is empty, or it carries those of the schedule *)
Lemma vqs_wf_sorted s a :
  vqs_wf s -> find_auction s (a_id a) = Some a -> scheds_wf a -> StronglySorted Z.lt (map v_time (vqs_of s (a_id a))).
Proof.
  intros W F SW. destruct (vqs_of s (a_id a)) as [|v r] eqn:E; [constructor|]. rewrite <- E.
  assert (O : vq_own a v) by (apply (vqs_wf_own s _ a v W F); rewrite E; left; reflexivity).
  assert (Hne : a_scheds a <> []) by (intros C; pose proof (vo_time O) as X; rewrite C in X; exact X).
  rewrite (proj1 (vqs_wf_queue s a W (proj1 (find_auction_some _ _ _ F)) (vo_status O) Hne)).
  apply (scheds_wf_cases a SW Hne).
Qed.

(* when only auction id is touched, vqs_wf has to be shown for the queue and the record of id alone *)
Lemma vqs_wf_by_frame s s' id a' :
  ids_ok s' -> vqs_wf s -> frame id s s' -> find_auction s' id = Some a' -> NoDup (map vkey (st_vqs s')) ->
  (forall v, In v (vqs_of s' id) -> vq_own a' v) ->
  (vest_status a' -> a_scheds a' <> [] ->
     map v_time (vqs_of s' id) = map s_time (a_scheds a')
     /\ exists k, map v_released (vqs_of s' id) = repeat true k ++ repeat false (length (a_scheds a') - k)) ->
  vqs_wf s'.
Proof.
  intros OK' (W1 & _ & W3) Fr F' ND Hq Ha. split; [|split; [exact ND|]].
  - rewrite Forall_forall in *. intros v Hv. destruct (N.eq_dec (v_auction v) id) as [E|E].
    + destruct (Hq v (proj2 (vqs_of_in s' id v) (conj Hv E))) as [Hamt H1 H2 H3 H4 H5].
      split; [exact Hamt|]. exists a'. rewrite E. repeat split; assumption.
    + pose proof (se_auction _ _ _ (Fr _ E)) as Ea. pose proof (se_vqs _ _ _ (Fr _ E)) as Ev.
      assert (Hv0 : In v (vqs_of s (v_auction v))) by (rewrite <- Ev; apply vqs_of_in; split; [exact Hv|reflexivity]).
      apply vqs_of_in in Hv0. destruct (W1 v (proj1 Hv0)) as [Hamt (x & Fx & R)].
      split; [exact Hamt|]. exists x. rewrite Ea. split; assumption.
  - intros x Hx Sx Hne. pose proof (ids_ok_find s' x OK' Hx) as Fx.
    destruct (N.eq_dec (a_id x) id) as [E|E].
    + rewrite E, F' in Fx. injection Fx as <-. rewrite E. exact (Ha Sx Hne).
    + rewrite (se_auction _ _ _ (Fr _ E)) in Fx. rewrite (se_vqs _ _ _ (Fr _ E)).
      apply (W3 x (proj1 (find_auction_some _ _ _ Fx)) Sx Hne).
Qed.

Lemma vqs_wf_inert s s' id a a' :
  ids_ok s' -> vqs_wf s -> frame id s s' -> st_vqs s' = st_vqs s ->
  find_auction s id = Some a -> ~ vest_status a -> find_auction s' id = Some a' -> ~ vest_status a' -> vqs_wf s'.
Proof.
  intros OK' W Fr HV F Na F' Na'. apply (vqs_wf_by_frame s s' id a' OK' W Fr F').
  - rewrite HV. apply W.
  - unfold vqs_of. rewrite HV. fold (vqs_of s id).
    rewrite (vqs_wf_no_queue s id a W F Na). intros v [].
  - intros Sx. contradiction.
Qed.

Lemma new_vqs_split a R : new_vqs a R = split a R R (a_scheds a).
Proof. unfold new_vqs. destruct (a_scheds a); reflexivity. Qed.

Lemma split_keys a total : forall vs rem,
  map vkey (split a total rem vs) = map (fun x => (a_id a, s_time x)) vs.
Proof.
  induction vs as [|v vs IH]; intros rem; cbn [split map]; [reflexivity|].
  rewrite IH. reflexivity.
Qed.

Lemma split_nonneg_rem a total : forall vs rem,
  0 <= total -> Forall (fun v => 0 <= s_weight v) vs -> total * sumZ (map s_weight vs) <= rem * P ->
  Forall (fun x => 0 <= v_amt x) (split a total rem vs).
Proof. intros vs rem. apply split_nonneg_gen. Qed.

(* a settlement, fixed price or batch: the auction had no queue and gets the instalments of its proceeds; the record
   stored has the terms of a *)
Lemma vqs_wf_settle t s a mi wr :
  ids_ok (act_state t s a (ASettle mi wr)) -> vqs_wf s -> find_auction s (a_id a) = Some a -> a_status a = Started ->
  scheds_wf a -> Ledger.pays (st_bal s) (settle_xfers s a mi wr) -> vqs_wf (act_state t s a (ASettle mi wr)).
Proof.
  intros OK' W F St SW Pp. pose proof (vqs_wf_nodup s W) as W2.
  set (s' := act_state t s a (ASettle mi wr)) in *. set (R := proceeds_of s a mi wr).
  set (a' := act_record t s a (ASettle mi wr)).
  assert (Ta : a_status a' = settled_st a /\ a_scheds a' = a_scheds a /\ a_auctioneer a' = a_auctioneer a
               /\ a_pay_denom a' = a_pay_denom a) by (destruct wr; repeat split).
  destruct Ta as (T1 & T2 & T3 & T4).
  assert (Hr : 0 <= R) by apply (pays_settle_xfers s a mi wr), Pp.
  assert (Hvq0 : vqs_of s (a_id a) = []).
  { apply (vqs_wf_no_queue s _ a W F), (not_vest_status _ _ St); discriminate. }
  assert (HV : st_vqs s' = st_vqs s ++ split a R R (a_scheds a)) by (rewrite <- new_vqs_split; apply settled_vqs).
  assert (HVQ : vqs_of s' (a_id a) = split a R R (a_scheds a)).
  { unfold s'. cbn [act_state]. rewrite settled_own_vqs, Hvq0, new_vqs_split. reflexivity. }
  assert (SC : a_scheds a <> [] -> StronglySorted Z.lt (map s_time (a_scheds a))
                /\ Forall (fun x => 0 <= v_amt x) (split a R R (a_scheds a))).
  { intros ES. destruct (scheds_wf_cases a SW ES) as (HS & Hw & Hsum).
    split; [exact HS|]. apply split_nonneg; [exact Hr|exact Hw|exact Hsum]. }
  pose proof (split_fields a R (a_scheds a) R) as Hf. rewrite Forall_forall in Hf.
  apply (vqs_wf_by_frame s s' (a_id a) a' OK' W (pe_frame _ _ _ (act_eff t s a (ASettle mi wr))) (act_find t s a _ F)).
  - rewrite HV, map_app. apply NoDup_app_intro; [exact W2| |].
    + rewrite split_keys. assert (HS : NoDup (map s_time (a_scheds a))).
      { destruct (a_scheds a); [constructor|]. apply (ssorted_nodup Z.lt _ Z.lt_irrefl), SC. discriminate. }
      apply (Injective_map_NoDup (f := fun z : Z => (a_id a, z))) in HS; [|intros x y E; congruence].
      rewrite map_map in HS. exact HS.
    + intros k Hk1 Hk2. apply in_map_iff in Hk1. destruct Hk1 as (v & <- & Hv).
      apply in_map_iff in Hk2. destruct Hk2 as (w & Ew & Hw). apply split_auction in Hw.
      injection Ew as E1 _. apply (proj1 (filter_nil_iff _ _) Hvq0) in Hv. apply N.eqb_neq in Hv. congruence.
  - rewrite HVQ. intros v Hv. destruct (Hf v Hv) as (R1 & R2 & R3 & R4).
    assert (ES : a_scheds a <> []) by (intros ES; rewrite ES in Hv; exact Hv).
    destruct (SC ES) as [_ Hnn]. rewrite Forall_forall in Hnn.
    assert (Sa : settled_st a = VestingS) by (unfold settled_st; destruct (a_scheds a); [congruence|reflexivity]).
    constructor; unfold vest_status; rewrite ?T1, ?T2, ?T3, ?T4, ?Sa; try assumption.
    + apply Hnn, Hv.
    + left; reflexivity.
    + rewrite <- (split_times a R (a_scheds a) R). apply in_map. exact Hv.
    + discriminate.
  - intros _ _. rewrite T2, HVQ.
    split; [apply split_times|]. exists 0%nat. cbn [repeat app]. rewrite Nat.sub_0_r.
    rewrite <- (split_length a R (a_scheds a) R). apply map_const_false. intros v Hv. apply (Hf v Hv).
Qed.

(* a release: the entries keep everything but the flag, the record everything but the status *)
Lemma vqs_wf_release t s a :
  ids_ok (act_state t s a ARelease) -> vqs_wf s -> find_auction s (a_id a) = Some a -> a_status a = VestingS ->
  scheds_wf a -> vqs_wf (act_state t s a ARelease).
Proof.
  intros OK' W F St SW. pose proof (vqs_wf_nodup s W) as W2.
  pose proof (find_auction_some _ _ _ F) as [Ha _].
  pose proof (act_find t s a ARelease F) as Fsame. cbn [act_record] in Fsame. rewrite last_due_eq in Fsame.
  pose proof (pe_frame _ _ _ (act_eff t s a ARelease)) as Fr.
  set (s' := act_state t s a ARelease) in *.
  assert (HV : st_vqs s' = map (release_vq (a_id a) t) (st_vqs s)) by exact (released_vqs s a t W2).
  assert (HVa : vqs_of s' (a_id a) = map (release_vq (a_id a) t) (vqs_of s (a_id a))).
  { unfold s'. cbn [act_state]. rewrite (released_vqs_of s a t _ W2), N.eqb_refl. reflexivity. }
  set (vs := vqs_of s (a_id a)) in *.
  assert (Hvs : forall v, In v vs -> v_auction v = a_id a) by (intros v Hv; exact (vqs_of_auction _ _ _ Hv)).
  pose proof (vqs_wf_sorted s a W F SW) as HS. fold vs in HS.
  apply (vqs_wf_by_frame s s' (a_id a) _ OK' W Fr Fsame).
  - rewrite HV, map_map. erewrite map_ext; [exact W2|]. intros v. apply release_vq_key.
  - rewrite HVa. intros v' Hv'. apply in_map_iff in Hv'. destruct Hv' as (v & <- & Hv).
    destruct (vqs_wf_own s _ a v W F Hv) as [X0 _ X1 X2 X3 _].
    destruct (release_vq_fields (a_id a) t v) as (G1 & G2 & G3 & G4).
    destruct (last_due_rec t vs) eqn:L; constructor; unfold vest_status; rewrite ?G1, ?G2, ?G3, ?G4; try assumption.
    + right; reflexivity.
    + intros _. exact (last_due_all_released t (a_id a) vs HS Hvs L v Hv).
    + left; exact St.
    + intros Hf. congruence.
  - assert (Hsc : a_scheds (if last_due_rec t vs then set_status a Finished else a) = a_scheds a)
      by (destruct (last_due_rec t vs); reflexivity).
    rewrite Hsc, HVa. intros _ Hne.
    destruct (vqs_wf_queue s a W Ha (or_introl St) Hne) as (Ht & k & Hk). fold vs in Ht, Hk. split.
    + rewrite map_map. erewrite map_ext; [exact Ht|]. intros v. apply release_vq_fields.
    + destruct (flags_prefix_release t (a_id a) vs k _ HS Hvs Hk) as (k' & Hk').
      exists k'. rewrite Hk'. f_equal. f_equal.
      rewrite <- (map_length v_time vs), Ht, map_length. reflexivity.
Qed.

Theorem vqs_wf_process t orc s a s' :
  ids_ok s -> vqs_wf s -> find_auction s (a_id a) = Some a -> scheds_wf a ->
  process t orc s a = Ok s' -> vqs_wf s'.
Proof.
  intros OK W F SW H. apply process_iff in H. destruct H as (x & C & P & ->).
  pose proof (ids_ok_glob _ _ (pe_glob _ _ _ (act_eff t s a x)) OK) as OK'. pose proof (pe_frame _ _ _ (act_eff t s a x)) as Fr.
  pose proof (act_find t s a x F) as Fsame.
  assert (Inert : forall a', a_status a = Started \/ a_status a = StandBy -> a_status a' = Started ->
            st_vqs (act_state t s a x) = st_vqs s -> find_auction (act_state t s a x) (a_id a) = Some a' ->
            vqs_wf (act_state t s a x)).
  { intros a' St St' HV F'. apply (vqs_wf_inert s _ (a_id a) a a' OK' W Fr HV F); [|exact F'|].
    - destruct St as [St|St]; apply (not_vest_status _ _ St); discriminate.
    - apply (not_vest_status _ _ St'); discriminate. }
  destruct C as [C|St L|St L Ty|mi St L Ty M|St].
  - exact W.
  - apply (Inert (set_status a Started)); [right; exact St|reflexivity|reflexivity|exact Fsame].
  - exact (vqs_wf_settle t s a _ false OK' W F St SW (proj2 P)).
  - destruct (decision s a mi); [|exact (vqs_wf_settle t s a mi true OK' W F St SW (proj2 P))].
    apply (Inert (extended s a mi)); [left; exact St|exact St|reflexivity|exact Fsame].
  - exact (vqs_wf_release t s a OK' W F St SW).
Qed.

Corollary vqs_wf_process_in t orc s a s' :
  ids_ok s -> scheds_all_wf s -> vqs_wf s -> In a (st_auctions s) ->
  process t orc s a = Ok s' -> vqs_wf s'.
Proof.
  intros OK SW W Ha.
  exact (vqs_wf_process t orc s a s' OK W (ids_ok_find s a OK Ha) (proj1 (Forall_forall _ _) SW a Ha)).
Qed.

(* the whole list, as BeginBlocker walks it: the records are those of the state the walk started from *)
Theorem vqs_wf_process_all t orc : forall l s s',
  ids_ok s -> vqs_wf s -> NoDup (map a_id l) ->
  (forall a, In a l -> find_auction s (a_id a) = Some a /\ scheds_wf a) ->
  process_all t orc s l = Ok s' -> vqs_wf s' /\ ids_ok s'.
Proof.
  intros l s s' OK W ND Hl. apply (process_all_ind (fun s => vqs_wf s /\ ids_ok s) t orc l); [|auto|exact ND|apply Hl].
  intros s0 a s1 Ha [W0 OK0] F E. split.
  - exact (vqs_wf_process _ _ _ _ _ OK0 W0 F (proj2 (Hl a Ha)) E).
  - pose proof (process_eff _ _ _ _ _ E) as PE. exact (ids_ok_glob _ _ (pe_glob _ _ _ PE) OK0).
Qed.

Theorem vqs_wf_begin_block s t orc s' :
  ids_ok s -> scheds_all_wf s -> vqs_wf s -> begin_block s t orc = Ok s' -> vqs_wf s' /\ ids_ok s'.
Proof.
  intros OK SW W H. rewrite begin_block_eq in H.
  apply (vqs_wf_process_all t orc _ (with_now s t) s' OK (vqs_wf_with_now s t W) (proj1 OK)); [|exact H].
  intros a Ha. split; [exact (ids_ok_find s a OK Ha)|exact (proj1 (Forall_forall _ _) SW a Ha)].
Qed.

(* a record in a vesting status after a transaction is the record from before: transactions only create auctions
   (waiting or open), cancel waiting ones, and adjust the remainder of open ones *)
Lemma tx_vest_back s o out s' j a' :
  tx_shape s o out s' -> find_auction s' j = Some a' -> vest_status a' -> find_auction s j = Some a'.
Proof.
  intros Sh F' St. destruct (find_auction s j) as [a|] eqn:F.
  - destruct (tx_auction _ _ _ _ j a Sh F) as (a2 & F2 & Rel). rewrite F' in F2. injection F2 as <-.
    destruct Rel as [|who S1 _ _|who bt p c x S1 _ _]; [reflexivity| |].
    + exfalso. unfold cancel_of in St. destruct St as [St|St]; cbn [a_status set_status] in St; discriminate St.
    + exfalso. destruct St as [St|St]; cbn [a_status set_remaining] in St; congruence.
  - exfalso. destruct (tx_auction_list _ _ _ _ Sh) as [(a & C)|[HM _]].
    + pose proof (cr_status C) as Hst. rewrite (find_auction_conv_app s s' a j (cr_auctions C)), F in F'.
      destruct (N.eqb (a_id a) j); [|discriminate F']. injection F' as <-.
      destruct (a_start a <=? st_now s); destruct St as [St|St]; congruence.
    + rewrite (find_auction_none_ids s s' j HM F) in F'. discriminate F'.
Qed.

(* the queues are untouched, and so is every record in a vesting status, looked at from before or from after *)
Lemma vqs_wf_tx s o out s' : tx_shape s o out s' -> ids_ok s -> vqs_wf s -> vqs_wf s'.
Proof.
  intros Sh OK (W1 & W2 & W3). pose proof (tx_vqs _ _ _ _ Sh) as HV.
  unfold vqs_wf, vqs_of. rewrite HV. split; [|split; [exact W2|]].
  - eapply Forall_impl; [|exact W1]. intros v [Hamt (a & F & St & R)]. split; [exact Hamt|].
    exists a. split; [|split; assumption].
    destruct (tx_auction _ _ _ _ _ a Sh F) as (a' & F' & Rel).
    destruct Rel as [|who S1 _ _|who bt p c x S1 _ _]; [exact F'| |]; destruct St as [St|St]; congruence.
  - intros a Ha St Hne. pose proof (ids_ok_find s' a (tx_ids_ok _ _ _ _ Sh OK) Ha) as F.
    apply (tx_vest_back _ _ _ _ _ _ Sh) in F; [|exact St]. exact (W3 a (proj1 (find_auction_some _ _ _ F)) St Hne).
Qed.

Theorem vqs_wf_step s o :
  ids_ok s -> scheds_all_wf s -> vqs_wf s -> o <> OGenesis -> vqs_wf (snd (step s o)).
Proof.
  intros OK SW W Hg. destruct (is_block o) eqn:B.
  - destruct (step_block s o B) as [[_ H]|[_ (tr & ->)]].
    + apply (vqs_wf_begin_block _ _ _ _ OK SW W H).
    + apply vqs_wf_with_trace, vqs_wf_with_now. exact W.
  - eapply vqs_wf_tx; [apply step_shape; assumption|exact OK|exact W].
Qed.

(* flags are never reset, queue entries are never removed or altered otherwise; new entries are appended *)
Definition vq_evolve (v v' : vq) : Prop := v' = v \/ (v_released v = false /\ v' = set_v_released v true).
Definition vqs_evolve (s s' : state) : Prop :=
  exists l new, st_vqs s' = l ++ new /\ Forall2 vq_evolve (st_vqs s) l.

Lemma vq_evolve_refl v : vq_evolve v v.
Proof. left. reflexivity. Qed.
Lemma vq_evolve_trans v1 v2 v3 : vq_evolve v1 v2 -> vq_evolve v2 v3 -> vq_evolve v1 v3.
Proof.
  intros [->|[R1 ->]] [->|[R2 ->]].
  - left; reflexivity.
  - right; split; [exact R2|reflexivity].
  - right; split; [exact R1|reflexivity].
  - cbn in R2. discriminate R2.
Qed.

Lemma vqs_evolve_app s s' new : st_vqs s' = st_vqs s ++ new -> vqs_evolve s s'.
Proof.
  intros H. exists (st_vqs s), new. split; [exact H|].
  rewrite <- (map_id (st_vqs s)) at 2. apply Forall2_map_r. intros x. apply vq_evolve_refl.
Qed.
Lemma vqs_evolve_same s s' : st_vqs s' = st_vqs s -> vqs_evolve s s'.
Proof. intros H. apply (vqs_evolve_app s s' []). rewrite app_nil_r. exact H. Qed.
Lemma vqs_evolve_refl s : vqs_evolve s s.
Proof. apply vqs_evolve_same. reflexivity. Qed.
Lemma vqs_evolve_trans s1 s2 s3 : vqs_evolve s1 s2 -> vqs_evolve s2 s3 -> vqs_evolve s1 s3.
Proof.
  intros (l1 & n1 & E1 & F1) (l2 & n2 & E2 & F2). rewrite E1 in F2.
  apply Forall2_app_inv_l in F2. destruct F2 as (la & lb & Fa & Fb & ->).
  exists la, (lb ++ n2). split; [rewrite E2, app_assoc; reflexivity|].
  eapply Forall2_trans'; [exact vq_evolve_trans|exact F1|exact Fa].
Qed.
Lemma mark_evolve ks x : vq_evolve x (mark ks x).
Proof.
  unfold mark. destruct (existsb (same_key x) ks); [|left; reflexivity].
  destruct (v_released x) eqn:R; [left; apply set_released_same; exact R|right; split; [exact R|reflexivity]].
Qed.

Lemma released_evolve a t vs s : vqs_evolve s (released_state s a t vs).
Proof.
  pose proof (released_spec a t vs s) as H. exists (st_vqs (released_state s a t vs)), []. split; [symmetry; apply app_nil_r|].
  rewrite (rs_vqs _ _ _ _ _ H). apply Forall2_map_r. intros x. apply mark_evolve.
Qed.

Lemma process_evolve t orc s a s' : process t orc s a = Ok s' -> vqs_evolve s s'.
Proof.
  intros H. apply process_iff in H. destruct H as (x & _ & _ & ->). destruct x as [| |mi|mi wr|]; cbn [act_state].
  - (* idle *) apply vqs_evolve_refl.
  - (* opened *) apply vqs_evolve_same. reflexivity.
  - (* extended *) apply vqs_evolve_same. reflexivity.
  - (* settled: the new instalments are appended *) eapply vqs_evolve_app, settled_vqs.
  - (* released *) apply released_evolve.
Qed.

Lemma process_all_evolve t orc l s s' : process_all t orc s l = Ok s' -> vqs_evolve s s'.
Proof.
  apply (process_all_chain t orc vqs_evolve l); [exact vqs_evolve_refl|exact vqs_evolve_trans|].
  intros s0 a s1 _. apply process_evolve.
Qed.

Theorem step_vqs_evolve s o : o <> OGenesis -> vqs_evolve s (snd (step s o)).
Proof.
  intros Hg. destruct (is_block o) eqn:B.
  - destruct (step_block s o B) as [[_ H]|[_ (tr & ->)]]; [|apply vqs_evolve_same; reflexivity].
    rewrite begin_block_eq in H. apply process_all_evolve in H.
    eapply vqs_evolve_trans; [|exact H]. apply vqs_evolve_same. reflexivity.
  - apply vqs_evolve_same. eapply tx_vqs. apply step_shape; assumption.
Qed.

Lemma released_not_due t v : v_released v = true -> vq_due t v = false.
Proof. unfold vq_due. intros ->. apply andb_false_r. Qed.
Lemma released_not_paid t vs v : v_released v = true -> ~ In v (paid_of t vs).
Proof.
  intros R H. unfold paid_of, due_of in H. apply filter_In in H. destruct H as [H _].
  apply filter_In in H. destruct H as [_ H]. rewrite (released_not_due t v R) in H. discriminate H.
Qed.
Lemma released_unchanged id t v : v_released v = true -> release_vq id t v = v.
Proof. intros R. unfold release_vq. rewrite (released_not_due t v R), andb_false_r. reflexivity. Qed.

Lemma flipped_due id t vs :
  (forall v, In v vs -> v_auction v = id) ->
  filter (fun v => negb (v_released v) && v_released (release_vq id t v)) vs = due_of t vs.
Proof.
  intros Hid. unfold due_of. apply filter_ext_in. intros v Hv.
  rewrite release_vq_flag, (Hid v Hv), N.eqb_refl. unfold vq_due. cbn [andb].
  destruct (v_released v), (v_time v <=? t); reflexivity.
Qed.

Theorem released_iff_paid s a t s' :
  NoDup (map vkey (st_vqs s)) -> release_loop s a t (vqs_of s (a_id a)) = Ok s' ->
  let vs := vqs_of s (a_id a) in
  let flipped := filter (fun v => negb (v_released v) && v_released (release_vq (a_id a) t v)) vs in
  vqs_of s' (a_id a) = map (release_vq (a_id a) t) vs
  /\ (forall v, In v vs -> v_released (release_vq (a_id a) t v) = v_released v || (v_time v <=? t))
  /\ st_xfers s' = st_xfers s ++ map (xfer_of a) (filter (fun v => negb (v_amt v =? 0)) flipped).
Proof.
  intros ND H vs flipped. apply release_loop_state in H. subst s'.
  pose proof (released_vqs_of s a t (a_id a) ND) as HVa. rewrite N.eqb_refl in HVa.
  assert (Hid : forall v, In v vs -> v_auction v = a_id a) by (intros v Hv; apply vqs_of_in in Hv; apply Hv).
  split; [exact HVa|]. split.
  - intros v Hv. rewrite release_vq_flag, (Hid v Hv), N.eqb_refl. reflexivity.
  - rewrite (rs_xfers _ _ _ _ _ (released_spec a t (vqs_of s (a_id a)) s)). unfold flipped. rewrite (flipped_due _ t vs Hid). reflexivity.
Qed.

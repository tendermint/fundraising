(* InvS is preserved by BeginBlocker, at the granularity of one auction (process), of a list of auctions
   (process_all) and of the whole block (begin_block, the OBlock / OFaultBlock steps).
   No assumption on the oracle is needed: an invalid sweep order makes the block fail. *)
From Coq Require Import ZArith NArith List Bool Arith Lia Permutation.
From FR Require Import Types Match Step Model.
From FR.Proofs Require Import ListFacts FrameFacts BlockFacts BlockWalk MatchDemand MatchBatch VestingFacts InvDefs
  InvStaticBase InvStaticUpd LedgerSettle.
Import ListNotations.
Open Scope Z_scope.

(* a0: the stored record; a: the record settlement works with *)
Lemma InvS_settle_state s a0 a mi wr :
  InvS s -> find_auction s (a_id a0) = Some a0 -> upd_ok a0 a -> auction_wf a -> InvS (settle_state s a mi wr).
Proof.
  intros I F U W. pose proof (upd_ok_id _ _ U) as Uid.
  assert (U' : upd_ok a0 (set_status a (settled_st a))).
  { apply upd_ok_set_status; [exact U| |]; unfold settled_st; destruct (a_scheds a); discriminate. }
  pose proof (auction_wf_set_status a (settled_st a) W) as W'.
  unfold settle_state, Ledger.banked, HookFacts.hooked.
  apply (InvS_put_auction _ a0); [|exact F|exact U'|exact W'].
  apply InvS_with_vqs; [apply InvS_with_bank, InvS_with_trace, I|]. apply Forall_app. split; [exact (InvS_vqs_lt s I)|].
  rewrite Forall_forall. intros x Hx. rewrite (new_vqs_auction _ _ _ Hx), Uid. exact (InvS_find_lt s _ a0 I F).
Qed.

Lemma InvS_process_found t orc s a s' :
  InvS s -> find_auction s (a_id a) = Some a -> process t orc s a = Ok s' -> InvS s'.
Proof.
  intros I F H. pose proof (InvS_find_wf s _ a I F) as W. apply process_iff in H. destruct H as (x & C & _ & ->).
  assert (U : a_status a <> Cancelled -> upd_ok a a) by (intros NC; apply upd_ok_same_status; try reflexivity; exact NC).
  assert (Uset : forall st, a_status a <> Cancelled -> st <> StandBy -> st <> Cancelled -> upd_ok a (set_status a st))
    by (intros st NC N1 N2; apply upd_ok_set_status; [exact (U NC)|exact N1|exact N2]).
  destruct C as [C|St L|St L Ty|mi St L Ty (order & VO & CB)|St]; cbn [act_state].
  - (* idle *) exact I.
  - (* open *) apply (InvS_put_auction s a); [exact I|exact F| |apply auction_wf_set_status; exact W].
    apply Uset; [rewrite St| |]; discriminate.
  - (* settle, fixed price *) apply (InvS_settle_state s a a); [exact I|exact F| |exact W]. apply U. rewrite St. discriminate.
  - (* batch: the flags are written, then the round is extended or the auction settled *)
    destruct (valid_order_spec _ _ _ VO) as (Pm & _ & Eids & NDids).
    assert (BP : forall b, In b order -> 0 < b_price b).
    { intros b Hb. apply (Permutation_in _ Pm) in Hb. apply bids_of_in in Hb. destruct Hb as [Hb _].
      destruct (is_bids s I) as [B1 _]. rewrite Forall_forall in B1. apply (bwf_price s b (B1 b Hb)). }
    destruct (calc_batch_static _ _ _ _ _ CB) as (M1 & M2 & M3); [rewrite Eids; exact NDids|]. specialize (M3 BP).
    assert (I1 : InvS (set_flags s (a_id a) (mi_matched mi))).
    { apply (InvS_set_flags s (a_id a) a); try assumption.
      intros x Hx. apply M2 in Hx. eapply Permutation_in; [apply Permutation_map; exact Pm|exact Hx]. }
    assert (W1 : auction_wf (set_matched_price a (mi_price mi))) by (apply auction_wf_set_matched_price; assumption).
    assert (NC : a_status a <> Cancelled) by (rewrite St; discriminate).
    destruct (decision s a mi) eqn:D; cbn [act_state settle_from settle_as].
    + apply (InvS_put_auction _ a); [exact I1|exact F|exact (U NC)|].
      unfold decision in D. apply andb_true_iff in D. destruct D as [D _]. apply negb_true_iff, N.eqb_neq in D.
      pose proof (awf_ends a W) as We.
      apply auction_wf_set_ends; [| |exact W1].
      * cbn [a_max_round set_matched_price]. rewrite app_length. cbn [length]. lia.
      * apply hd_app_nonempty. intros E. apply (f_equal (@length Z)) in E.
        cbn in E. lia.
    + apply (InvS_settle_state _ a (set_matched_price a (mi_price mi))); [exact I1|exact F|exact (U NC)|exact W1].
  - (* release *) unfold released_state. cbv zeta.
    match goal with |- InvS (if _ then put_auction ?s1 _ else _) => assert (I1 : InvS s1) end.
    { apply InvS_with_vqs; [apply InvS_with_bank; exact I|]. rewrite Forall_map.
      eapply Forall_impl; [|exact (InvS_vqs_lt s I)]. intros x Hx. rewrite mark_auction. exact Hx. }
    destruct (last_due_rec t _); [|exact I1].
    apply (InvS_put_auction _ a); [exact I1|exact F| |apply auction_wf_set_status; exact W].
    apply Uset; [rewrite St| |]; discriminate.
Qed.

(* process_all walks a snapshot l of records of the store, pairwise distinct by id: a property that each step
   preserves, given that the record processed is still the stored one, holds at the end, because a step leaves the
   records of all other auctions alone *)
Lemma process_all_ind (P : state -> Prop) t orc : forall l,
  (forall s a s', In a l -> P s -> find_auction s (a_id a) = Some a -> process t orc s a = Ok s' -> P s') ->
  forall s s', P s -> NoDup (map a_id l) -> (forall a, In a l -> find_auction s (a_id a) = Some a) ->
  process_all t orc s l = Ok s' -> P s'.
Proof.
  intros l Step s s' HP ND Hl. revert s'.
  apply (process_all_walk t orc P (fun _ a => In a l) (fun s r => forall s', process_all t orc s r = Ok s' -> P s')); try assumption.
  - intros s0 a s1 P0 F Ha E. exact (Step s0 a s1 Ha P0 F E).
  - intros s0 a s1 x _ _ Hx. exact Hx.
  - intros s0 P0 s' H. injection H as <-. exact P0.
  - intros s0 a rest _ _ _ _ IH s' H. cbn [process_all] in H. apply ResFacts.bind_ok_inv in H.
    destruct H as (s1 & E & H). exact (IH s1 E s' H).
  - auto.
Qed.

Theorem InvS_process_all t orc l s s' :
  InvS s -> NoDup (map a_id l) -> (forall a, In a l -> In a (st_auctions s)) ->
  process_all t orc s l = Ok s' -> InvS s'.
Proof.
  intros I ND Hl. apply (process_all_ind InvS t orc l); [|exact I|exact ND|].
  - intros s0 a s1 _. apply InvS_process_found.
  - intros a Ha. apply InvS_find; [exact I|apply Hl; exact Ha].
Qed.

(* inside a block: after the first part l1 of the snapshot has been processed, InvS holds and the records of
   the rest l2 of the snapshot are still the current records of the store *)
Corollary InvS_block_prefix s t orc l1 l2 s1 :
  InvS s -> st_auctions s = l1 ++ l2 -> process_all t orc (with_now s t) l1 = Ok s1 ->
  InvS s1 /\ (forall a, In a l2 -> In a (st_auctions s1)) /\ NoDup (map a_id l2).
Proof.
  intros I Hs H. destruct (ids_seq_ids_ok s (is_ids s I)) as [ND _]. rewrite Hs, map_app in ND.
  destruct (NoDup_app_parts _ _ ND) as (N1 & N2 & D).
  assert (Hin : forall a, In a (l1 ++ l2) -> In a (st_auctions (with_now s t))) by (rewrite <- Hs; auto).
  split; [|split; [|exact N2]].
  - apply (InvS_process_all t orc l1 _ s1 (InvS_with_now s t I) N1); [|exact H].
    intros a Ha. apply Hin, in_or_app. left. exact Ha.
  - intros a Ha. pose proof (InvS_find _ a (InvS_with_now s t I) (Hin a (in_or_app _ _ _ (or_intror Ha)))) as F.
    rewrite <- (se_auction _ _ _ (process_all_frame t orc l1 _ _ (a_id a) (fun C => D _ C (in_map a_id _ _ Ha)) H)) in F.
    apply (find_auction_some _ _ _ F).
Qed.

Theorem InvS_begin_block s t orc s' : InvS s -> begin_block s t orc = Ok s' -> InvS s'.
Proof.
  rewrite begin_block_eq. intros I H.
  apply (InvS_process_all t orc _ _ _ (InvS_with_now s t I)) in H; [exact H| |auto].
  destruct (ids_seq_ids_ok s (is_ids s I)) as [ND _]. exact ND.
Qed.

Theorem InvS_step_block s o : is_block o = true -> InvS s -> InvS (snd (step s o)).
Proof.
  intros B I. destruct (step_block s o B) as [[_ H]|[_ (tr & ->)]].
  - eapply InvS_begin_block; eassumption.
  - apply InvS_with_trace, InvS_with_now, I.
Qed.

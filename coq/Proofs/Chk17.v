(* Checker link for C17 (hooks): how Checkers.c17_ok compares an expected hook list with a trace (a value or the
   "cannot tell" mark -1 per position); c17_ok from the verdict of the operation (HookVeto.step_verdict), which leaves
   only the calls of an operation that does not fail (c17_by_verdict); those of an accepted message or API call, read off
   the records it left (hooks_met).  Blocks, and the link for every operation, are in Proofs/Chk17Block.v. *)
From Coq Require Import ZArith NArith List Bool Lia.
From FR Require Import Types Step Model Checkers.
From FR.Proofs Require Import EqbFacts InvDefs HookBase HookSites HookVeto AllowFacts FrameFacts TxFacts InvAll FixedFacts.
Import ListNotations.
Open Scope Z_scope.

(* position by position the expectation is the value, or the "cannot tell" mark *)
Definition okm (exp got : list Z) : Prop := Forall2 (fun e g => e = -1 \/ e = g) exp got.

Lemma mask_okm exp : forall got, okm exp got -> mask_auctioneer exp got = got.
Proof.
  induction exp as [|e er IH]; intros got H.
  - inversion H. reflexivity.
  - inversion H as [|? g ? gr Hh Ht]; subst. cbn [mask_auctioneer]. rewrite (IH gr Ht).
    destruct Hh as [->| ->]; [reflexivity|]. destruct (g =? -1); reflexivity.
Qed.

Lemma okm_refl l : okm l l.
Proof. induction l as [|x r IH]; constructor; [right; reflexivity|exact IH]. Qed.

Lemma okm_enc_map us f g : (forall u, In u us -> f u = -1 \/ f u = g u) -> okm (enc_map us f) (enc_map us g).
Proof.
  intros H. unfold enc_map. constructor; [right; reflexivity|].
  induction us as [|u r IH]; cbn [flat_map]; [constructor|].
  constructor; [right; reflexivity|]. constructor; [apply H; left; reflexivity|].
  apply IH. intros v Hv. apply H. right. exact Hv.
Qed.

Definition hm (e g : N * list Z) : Prop := fst e = fst g /\ okm (snd e) (snd g).

Lemma expected_trace_hm s E : forall G,
  Forall2 hm E G -> list_eqb hookcall_eqb (expected_trace s E) (expected_trace s G) = true.
Proof.
  induction E as [|e E IH]; intros G H; inversion H as [|? g ? G' Hh Ht]; subst.
  { reflexivity. }
  unfold expected_trace. cbn [flat_map]. apply list_eqb_app; [|apply IH; exact Ht].
  destruct Hh as [Hk Ho].
  induction (seq 0 (length (st_listeners s))) as [|i r IHr]; cbn [map list_eqb]; [reflexivity|].
  rewrite IHr, andb_true_r. unfold hookcall_eqb. cbn [h_listener h_kind h_args].
  rewrite N.eqb_refl, Hk, N.eqb_refl, (mask_okm _ _ Ho), zeqb_list_refl. reflexivity.
Qed.

Lemma hm_refl_all E : Forall2 hm E E.
Proof. induction E as [|e E IH]; constructor; [split; [reflexivity|apply okm_refl]|exact IH]. Qed.

(* the ghost logs are not read by the comparison *)
Lemma vetoed_gr s tr : vetoed s tr = vetoed (ghost_reset s) tr.
Proof. reflexivity. Qed.
Lemma stops_gr s tr : stops_at_veto s tr = stops_at_veto (ghost_reset s) tr.
Proof. rewrite !stops_at_veto_is_stopsL. reflexivity. Qed.
Lemma expected_trace_gr s E : expected_trace s E = expected_trace (ghost_reset s) E.
Proof. reflexivity. Qed.

(* Checkers.c17_ok from the verdict: a veto shows as a failure and nothing is called after it, whatever the operation;
   what is left is what an operation that does not fail has called *)
Lemma c17_by_verdict s o :
  (let r := step (ghost_reset s) o in
   match class_of (fst r) with
   | KOk | KBlockOk => exists G, emits (ghost_reset s) G (snd r) /\ Forall2 hm (expected_hooks (model_trans s o)) G
   | KRej | KBlockErr | KPanic => True
   | _ => st_trace (snd r) = []
   end) -> c17_ok (model_trans s o) = true.
Proof.
  pose proof (step_verdict (ghost_reset s) o) as V. rewrite model_trans_eq. cbv zeta.
  set (r := step (ghost_reset s) o) in *. intros K.
  (* the trace of ghost_reset s is empty, so the whole trace of the post-state is the suffix the verdict speaks of *)
  assert (Htr : st_trace (snd r) = st_trace (ghost_reset s) ++ st_trace (snd r)) by reflexivity.
  pose proof (vd_stops V _ Htr) as Hs. rewrite <- stops_gr in Hs.
  pose proof (vd_iff V _ Htr) as Hv. rewrite <- vetoed_gr in Hv.
  unfold c17_ok. cbn [t_class t_pre t_trace]. rewrite Hs.
  destruct (vetoed s (st_trace (snd r))) eqn:Ev.
  - rewrite (proj1 Hv eq_refl). destruct o; reflexivity.
  - cbn [negb andb]. rewrite andb_true_r. destruct (class_of (fst r)); try reflexivity; try (rewrite K; reflexivity).
    all: destruct K as (G & E & M); change (st_trace (snd r) = expected_trace s G) in E; rewrite E; apply expected_trace_hm, M.
Qed.

Lemma call_outcome s o : is_call o -> fst (step s o) = Accepted \/ exists c, fst (step s o) = Rejected c.
Proof.
  intros Hc. assert (K : forall r, fst (commit s r) = Accepted \/ exists c, fst (commit s r) = Rejected c).
  { intros [x|c tr]; cbn [commit fst]; [left; reflexivity|right; exists c; reflexivity]. }
  destruct o as [m|a l|a u max| | | | |]; try contradiction; cbn [step]; try apply K.
  unfold deliver_tx. destruct (check_basic m); [apply K|right; exists E_BASIC; reflexivity].
Qed.

Lemma bids_wf_fresh_id s id : bids_wf s ->
  find (fun b => N.eqb (b_auction b) id && N.eqb (b_id b) (st_bseq s id + 1)) (st_bids s) = None.
Proof.
  intros [Hb _]. destruct (find _ (st_bids s)) as [b|] eqn:F; [|reflexivity]. exfalso.
  apply find_some in F as [Hin E]. apply key_eqb_eq in E as [E1 E2].
  rewrite Forall_forall in Hb. pose proof (bwf_id _ _ (Hb b Hin)) as K.
  rewrite E1, E2 in K. lia.
Qed.

Lemma find_auction_created s s' a :
  ids_ok s -> st_auctions s' = st_auctions s ++ [a] -> a_id a = st_aseq s -> find_auction s' (st_aseq s) = Some a.
Proof.
  intros OK Ha Hid. unfold find_auction. rewrite Ha, ListFacts.find_app_single.
  change (find (fun x => N.eqb (a_id x) (st_aseq s)) (st_auctions s)) with (find_auction s (st_aseq s)).
  rewrite (ids_ok_fresh s (st_aseq s) OK) by lia. rewrite Hid, N.eqb_refl. reflexivity.
Qed.

(* the hooks an accepted call must have made, read off the post-state, are the ones it made *)
Definition hooks_met (s : state) (o : op) (s' : state) : Prop :=
  emits s (expected_hooks {| t_pre := s; t_op := o; t_class := KOk; t_xfers := st_xfers s';
                             t_trace := st_trace s'; t_post := s'; t_fault := false; t_gen_valid := false |}) s'.

Lemma tx_expected s m :
  Inv s -> fst (step s (OTx m)) = Accepted -> hooks_met s (OTx m) (snd (step s (OTx m))).
Proof.
  intros I Es. destruct (accepted_tx_sites s m Es) as (c & Hcb & Hh & Hsite).
  set (s' := snd (step s (OTx m))) in *.
  unfold hooks_met, emits, expected_hooks. cbn [t_op t_pre t_post]. rewrite Hcb.
  destruct c as [u up price sd samt pd vs start end_|u up price minp sd samt pd vs maxr rate start end_|u up id
                 |u id bt price d amt|u id bid_id price d amt|a ea up u max|auth cfee bfee period];
    cbn [site_spec] in Hsite.
  - destruct Hsite as (a & Ha & Hid & _ & Ht).
    rewrite (find_auction_created s s' a (Inv_ids_ok s I) Ha Hid). exact Ht.
  - destruct Hsite as (a & Ha & Hid & _ & Ht).
    rewrite (find_auction_created s s' a (Inv_ids_ok s I) Ha Hid). exact Ht.
  - exact Hsite.
  - cbn [handle] in Hh. destruct Hsite as (b & Hb & B1 & _ & B3 & _ & _ & _ & _ & Ht).
    destruct (proj1 (place_bid_iff _ _ _ _ _ _ _ _) Hh) as (a0 & _ & _ & E).
    assert (Hq : st_bseq s' = upd (st_bseq s) id (st_bseq s id + 1)%N) by (rewrite E; reflexivity).
    rewrite Hq. unfold upd. rewrite N.eqb_refl. unfold find_bid.
    rewrite Hb, ListFacts.find_app_single, (bids_wf_fresh_id s id (inv_bids _ I)), B1, B3, !N.eqb_refl. exact Ht.
  - destruct Hsite as (b & Fb & Hb & Ht).
    assert (F : find_bid s' id bid_id = Some (set_b_terms b price amt)).
    { unfold find_bid. rewrite Hb. unfold put_bid. sproj. rewrite find_put_bid.
      destruct (find_bid_some _ _ _ _ Fb) as (_ & K1 & K2). cbn [set_b_terms b_auction b_id].
      rewrite K1, K2, !N.eqb_refl. cbn [andb].
      change (find (fun x => N.eqb (b_auction x) id && N.eqb (b_id x) bid_id) (st_bids s)) with (find_bid s id bid_id).
      rewrite Fb. reflexivity. }
    rewrite F. exact Ht.
  - exact Hsite.
  - rewrite Hsite. cbn [expected_trace flat_map]. rewrite app_nil_r. reflexivity.
Qed.

Lemma api_add_expected s id l :
  fst (step s (OApiAdd id l)) = Accepted -> hooks_met s (OApiAdd id l) (snd (step s (OApiAdd id l))).
Proof. exact (accepted_api_add_sites s id l). Qed.

Lemma api_update_expected s id u max :
  fst (step s (OApiUpdate id u max)) = Accepted ->
  hooks_met s (OApiUpdate id u max) (snd (step s (OApiUpdate id u max))).
Proof.
  intros Es. cbn [step] in *. apply commit_accepted in Es.
  apply api_update_iff in Es. destruct Es as (m & G & E). rewrite E, (up_max G).
  unfold hooks_met, expected_hooks. cbn [t_op t_post]. rewrite find_put_allowed, !N.eqb_refl. cbn [andb al_max].
  rewrite put_allowed_eq. exact (hooked_emits s s _ _ eq_refl eq_refl).
Qed.

Lemma expected_hooks_ext t1 t2 :
  t_op t1 = t_op t2 -> t_pre t1 = t_pre t2 -> t_post t1 = t_post t2 -> t_xfers t1 = t_xfers t2 ->
  expected_hooks t1 = expected_hooks t2.
Proof.
  intros A B C D. unfold expected_hooks, settling, paired, received, refunded. rewrite A, B, C, D. reflexivity.
Qed.

(* C05: the executable statements c05_grants (after an accepted allow-list operation the stored maximum of every
   account it names is the one granted last) and c05_api (the outcome class of a keeper call is the model's, which
   holds of a model transition by construction) hold of every model transition; with Chk05.c05_ok_model this
   gives the link for c05_all. *)
From Coq Require Import ZArith NArith List Bool.
From FR Require Import Types Step Model Checkers.
From FR.Proofs Require Import EqbFacts InvDefs FixedFacts.
From FR.Proofs Require AllowFacts TxFacts FrameFacts Chk05.
From FR.Proofs Require Import ChkSettle.
Import ListNotations.
Open Scope Z_scope.

Lemma stored_max_put s a u m a' u' :
  stored_max (put_allowed s a u m) a' u' = if N.eqb a' a && N.eqb u' u then Some m else stored_max s a' u'.
Proof.
  unfold stored_max. rewrite FrameFacts.find_put_allowed. destruct (N.eqb a' a && N.eqb u' u); reflexivity.
Qed.

Lemma stored_max_trace s tr a u : stored_max (with_trace s tr) a u = stored_max s a u.
Proof. reflexivity. Qed.

Definition granted_from (acc : option Z) (l : list (N * addr_str * option Z)) (u : N) : option Z :=
  fold_left (fun acc e => match e with
                          | (_, AGood _ v, Some m) => if N.eqb v u then Some m else acc
                          | _ => acc end) l acc.

(* after the entries are stored the maximum of u is what the list grants u last; the start value of the fold only
   matters for an account the list does not name, and then it is what was stored before *)
Lemma entries_stored a u : forall l s acc,
  Forall (TxFacts.entry_ok a) l ->
  (exists ea up max, In (ea, AGood up u, max) l) \/ acc = stored_max s (a_id a) u ->
  stored_max (fold_left (TxFacts.put_entry (a_id a)) l s) (a_id a) u = granted_from acc l u.
Proof.
  induction l as [|[[ea who] max] rest IH]; intros s acc Hl Hacc; cbn [fold_left].
  - destruct Hacc as [(ea & up & max & [])| ->]. reflexivity.
  - apply Forall_cons_iff in Hl. destruct Hl as [H0 Hl]. destruct who as [up v|]; [|destruct H0].
    destruct max as [m|]; [|destruct H0]. cbn [TxFacts.put_entry].
    change (granted_from acc ((ea, AGood up v, Some m) :: rest) u)
      with (granted_from (if N.eqb v u then Some m else acc) rest u).
    apply (IH _ _ Hl). rewrite stored_max_put, N.eqb_refl, (N.eqb_sym u v). cbn [andb].
    destruct Hacc as [(ea' & up' & max' & [E|Hin])| ->].
    + injection E as _ _ -> _. rewrite N.eqb_refl. right. reflexivity.
    + left. exists ea', up', max'. exact Hin.
    + right. reflexivity.
Qed.

Lemma api_add_grants s id l s' :
  api_add s id l = Ok s' ->
  forallb (fun e => match e with
                    | (_, AGood _ u, _) => optZ_eqb (stored_max s' id u) (granted l u)
                    | _ => true end) l = true.
Proof.
  intros H. apply TxFacts.api_add_iff in H. destruct H as (a & Fa & (_ & _ & Fo) & ->).
  pose proof (FrameFacts.find_auction_some _ _ _ Fa) as [_ <-].
  apply forallb_forall. intros [[ea who] max] He. destruct who as [up u|]; [|reflexivity].
  change (granted l u) with (granted_from None l u).
  rewrite (entries_stored a u l _ None Fo); [apply optZ_eqb_refl|]. left. exists ea, up, max. exact He.
Qed.

Lemma api_update_grants s id u max s' : api_update s id u max = Ok s' -> optZ_eqb (stored_max s' id u) max = true.
Proof.
  intros H. apply TxFacts.api_update_iff in H. destruct H as (m & G & ->).
  rewrite (TxFacts.up_max G), stored_max_put, !N.eqb_refl. apply Z.eqb_refl.
Qed.

Theorem c05_grants_model s o : c05_grants (model_trans s o) = true.
Proof.
  rewrite model_trans_eq. cbv zeta. unfold c05_grants. cbn [t_op t_class t_post].
  destruct o as [m|id l|id u max|t orc|t orc k|from to d amt|ls|]; try reflexivity.
  - (* the message: accepted, it is the call with the one entry, and only with the switch on *)
    destruct m as [| | | | |id ea who max|]; try reflexivity. destruct who as [up u|]; [|reflexivity].
    destruct (class_of _) eqn:Ek; try reflexivity. apply class_KOk in Ek.
    destruct (TxFacts.accepted_handle (ghost_reset s) _ Ek) as (c & Hc & Ea).
    cbn [check_basic] in Hc. injection Hc as <-. cbn [handle] in Ea.
    destruct (st_switch (ghost_reset s)); [|discriminate Ea].
    pose proof (api_add_grants _ _ _ _ Ea) as G. cbn [forallb] in G. rewrite andb_true_r in G.
    unfold granted in G. cbn [fold_left] in G. destruct max as [mx|].
    + rewrite N.eqb_refl in G. exact G.
    + (* a nil maximum is never accepted *)
      apply TxFacts.api_add_iff in Ea. destruct Ea as (a & _ & (_ & _ & Fo) & _).
      apply Forall_cons_iff, proj1 in Fo. destruct Fo.
  - destruct (class_of _) eqn:Ek; try reflexivity. apply class_KOk in Ek.
    cbn [step] in Ek |- *. apply TxFacts.commit_accepted in Ek. eapply api_add_grants; exact Ek.
  - destruct (class_of _) eqn:Ek; try reflexivity. apply class_KOk in Ek.
    cbn [step] in Ek |- *. apply TxFacts.commit_accepted in Ek. eapply api_update_grants; exact Ek.
Qed.

Theorem c05_api_model s o : c05_api (model_trans s o) = true.
Proof.
  rewrite model_trans_eq. cbv zeta. unfold c05_api. cbn [t_op t_class t_pre]. fold (ghost_reset s).
  destruct o; try reflexivity; apply oclass_eqb_refl.
Qed.

Theorem c05_all_model s o : Inv s -> c05_all (model_trans s o) = true.
Proof.
  intros I. unfold c05_all.
  rewrite (Chk05.c05_ok_model s o I), (c05_grants_model s o), (c05_api_model s o). reflexivity.
Qed.

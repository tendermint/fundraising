(* C02: terminal auctions.  Once an auction is Finished or Cancelled the module's records owe nothing
   out of any of its three escrow accounts, and every vesting instalment of it has been released (a cancelled
   auction has no instalments and no bids at all). *)
From Coq Require Import ZArith List Bool Lia.
From FR Require Import Types Checkers.
From FR.Proofs Require Import InvDefs.
From FR.Proofs Require InvAll VestingInv.
Import ListNotations.
Open Scope Z_scope.

Theorem terminal_auctions s a :
  Inv s -> In a (st_auctions s) -> a_status a = Finished \/ a_status a = Cancelled ->
  (forall r d, InvDefs.owed s r (a_id a) d = 0)
  /\ (forall v, In v (vqs_of s (a_id a)) -> v_released v = true)
  /\ (a_status a = Cancelled -> vqs_of s (a_id a) = [] /\ bids_of s (a_id a) = []).
Proof.
  intros I Ha Hst. pose proof (InvAll.Inv_find_in s a I Ha) as Fa.
  split; [|split].
  - intros r d. unfold InvDefs.owed. rewrite Fa.
    destruct r; destruct Hst as [E|E]; rewrite E; cbn [InvDefs.is_open status_eqb orb]; rewrite ?andb_false_r; reflexivity.
  - intros v Hin. pose proof (VestingInv.vqs_wf_own s _ a v (inv_vqs _ I) Fa Hin) as O.
    destruct Hst as [E|E]; [exact (VestingInv.vo_released O E)|]. destruct (VestingInv.vo_status O) as [C|C]; congruence.
  - intros E. split.
    + apply (VestingInv.vqs_wf_no_queue s _ a (inv_vqs _ I) Fa), (VestingInv.not_vest_status _ _ E); discriminate.
    + destruct (inv_fresh _ I) as [_ Hf]. apply Hf; [exact Ha|now right].
Qed.

(* the same for the monitor's copy of `owed`: the excess of Checkers.c01_ok is the whole balance *)
Corollary terminal_excess s a r d :
  Inv s -> In a (st_auctions s) -> a_status a = Finished \/ a_status a = Cancelled ->
  Checkers.owed s r (a_id a) d = 0 /\ excess s r (a_id a) d = st_bal s (Escrow r (a_id a)) d.
Proof.
  intros I Ha Hst. destruct (terminal_auctions s a I Ha Hst) as (H0 & _).
  unfold excess. change (Checkers.owed s r (a_id a) d) with (InvDefs.owed s r (a_id a) d). rewrite H0.
  split; [reflexivity|lia].
Qed.

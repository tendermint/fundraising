(* Vesting release (C09), the loop: release_loop yields released_state exactly when its transfers pay
   (yields_release_loop), like the other bank primitives; so it goes through when the vesting escrow covers what is due
   (Ledger.pays_esc_payments, rel_xfers_funded), and the balances it leaves are read off the net of rel_xfers (release_loop_ok has
   it all in one, for C09).  And what ApplyVestingSchedules does without a schedule (vested_no_sched). *)
From Coq Require Import ZArith NArith List Bool Lia.
From FR Require Import Types Bank Match Step.
From FR Require Checkers.
From FR.Proofs Require Import ListFacts BankFacts ResFacts EqbFacts FrameFacts BlockFacts VestingFacts Ledger LedgerSettle.
Import ListNotations.
Open Scope Z_scope.

Lemma rel_upd_nil s : rel_upd s [] [] = s.
Proof.
  unfold rel_upd. cbn [apply_xfers fold_left].
  rewrite app_nil_r, (map_ext (mark []) (fun x => x) mark_nil), map_id. destruct s; reflexivity.
Qed.

Lemma rel_upd_cons s xs k ys ks : rel_upd (rel_upd s xs [k]) ys ks = rel_upd s (xs ++ ys) (k :: ks).
Proof.
  unfold rel_upd. cbn [st_bal st_xfers st_vqs with_vqs with_bank].
  rewrite apply_xfers_app, app_assoc, <- map_mark_cons. reflexivity.
Qed.

Lemma rel_xfers_due a t v vs :
  rel_xfers a t (v :: vs)
  = (if vq_due t v then send_xf (Escrow Vesting (a_id a)) (User (a_auctioneer a)) (v_denom v) (v_amt v) else []) ++ rel_xfers a t vs.
Proof. rewrite rel_xfers_cons. unfold send_xf. destruct (vq_due t v), (v_amt v =? 0); reflexivity. Qed.

(* released_state is rel_upd s (all transfers) (all due entries), with the status written if the last entry is due
   (released_state_eq).  The loop builds it one due entry at a time: a send and the marking of that entry are
   rel_upd s xs [v], the status is written after the last entry, and rel_upd_cons folds the rel_upd of the rest of the
   walk into it. *)
Lemma released_state_due a t v rest s :
  vq_due t v = true ->
  let xs := send_xf (Escrow Vesting (a_id a)) (User (a_auctioneer a)) (v_denom v) (v_amt v) in
  released_state (match rest with [] => put_auction (rel_upd s xs [v]) (set_status a Finished) | _ => rel_upd s xs [v] end)
                 a t rest
  = released_state s a t (v :: rest).
Proof.
  intros D xs. rewrite !released_state_eq, rel_xfers_due, due_of_cons, D. fold xs. destruct rest as [|r rs].
  - cbn [last_due_rec]. rewrite D. change (rel_xfers a t []) with (@nil xfer). rewrite app_nil_r. apply rel_upd_nil.
  - rewrite rel_upd_cons. reflexivity.
Qed.

Lemma released_state_not_due a t v rest s : vq_due t v = false -> released_state s a t (v :: rest) = released_state s a t rest.
Proof.
  intros D. rewrite !released_state_eq, rel_xfers_due, due_of_cons, D. cbn [app].
  replace (last_due_rec t (v :: rest)) with (last_due_rec t rest); [reflexivity|].
  destruct rest; [cbn [last_due_rec]; rewrite D|]; reflexivity.
Qed.

(* it yields released_state exactly when its transfers pay, like send, send_coins and pay_out *)
Theorem yields_release_loop a t : forall vs s,
  yields (release_loop s a t vs) (pays (st_bal s) (rel_xfers a t vs)) (released_state s a t vs).
Proof.
  induction vs as [|v rest IH]; intros s; cbn [release_loop].
  - eapply yields_conv; [apply yields_ok|cbn; tauto|]. intros _. symmetry. apply rel_upd_nil.
  - fold (vq_due t v). rewrite rel_xfers_due. destruct (vq_due t v) eqn:D; cbn [app].
    + (* v is due: it is paid and marked, then the rest is walked *)
      eapply yields_conv; [eapply yields_bind; [apply yields_send|]|..].
      * cbv beta zeta. rewrite (map_ext _ _ (mark_single v)).
        change (with_vqs (banked s ?xs) (map (mark [v]) (st_vqs (banked s ?xs)))) with (rel_upd s xs [v]). apply IH.
      * rewrite pays_app. destruct rest; reflexivity.
      * intros _. exact (released_state_due a t v rest s D).
    + (* v is not due: the walk of the rest *)
      eapply yields_conv; [apply IH|reflexivity|]. intros _. symmetry. exact (released_state_not_due a t v rest s D).
Qed.

Theorem release_loop_state a t vs s s' : release_loop s a t vs = Ok s' -> s' = released_state s a t vs.
Proof. intros H. apply (yields_release_loop a t vs s s'), H. Qed.

Lemma release_loop_pays a t vs s : (exists s', release_loop s a t vs = Ok s') <-> pays (st_bal s) (rel_xfers a t vs).
Proof. exact (yields_is_ok _ _ _ (yields_release_loop a t vs s)). Qed.

(* the transfers of a release pay when every due amount is in one coin, none is negative and the escrow covers them *)
Lemma rel_xfers_pay a t d vs b :
  (forall v, In v vs -> vq_due t v = true -> 0 <= v_amt v /\ v_denom v = d) ->
  sumZ (map v_amt (due_of t vs)) <= b (Escrow Vesting (a_id a)) d -> pays b (rel_xfers a t vs).
Proof.
  intros Hv Hs.
  assert (Hin : forall v, In v (paid_of t vs) -> In v vs /\ vq_due t v = true /\ v_amt v <> 0).
  { intros v H. unfold paid_of, due_of in H. rewrite !filter_In in H. destruct H as [[H1 H2] H3].
    apply negb_true_iff, Z.eqb_neq in H3. auto. }
  unfold rel_xfers. apply (pays_esc_payments Vesting (a_id a) d).
  - rewrite Forall_map, Forall_forall. intros v H. destruct (Hin v H) as (H1 & H2 & _).
    split; [reflexivity|]. split; [apply (Hv v H1 H2)|eexists; reflexivity].
  - split.
    + rewrite Forall_map, Forall_forall. intros v H. destruct (Hin v H) as (H1 & H2 & H3).
      cbn [xfer_of x_amt]. destruct (Hv v H1 H2). lia.
    + right. rewrite map_map. cbn [xfer_of x_amt]. unfold paid_of. rewrite (sumZ_drop_zero v_amt). exact Hs.
Qed.

(* so they pay when the vesting escrow covers the unreleased instalments of the auction's own queue (J8) *)
Lemma rel_xfers_funded s a t :
  (forall v, In v (vqs_of s (a_id a)) -> 0 <= v_amt v /\ v_denom v = a_pay_denom a) ->
  sumZ (map v_amt (filter (fun v => negb (v_released v)) (vqs_of s (a_id a))))
    <= st_bal s (Escrow Vesting (a_id a)) (a_pay_denom a) ->
  pays (st_bal s) (rel_xfers a t (vqs_of s (a_id a))).
Proof.
  intros Hv Hs. apply (rel_xfers_pay a t (a_pay_denom a)); [intros v Hi _; exact (Hv v Hi)|].
  eapply Z.le_trans; [|exact Hs]. unfold due_of. apply sumZ_filter_mono.
  - intros x Hx. apply (Hv x Hx).
  - intros x _ Hx. unfold vq_due in Hx. apply andb_true_iff in Hx. apply Hx.
Qed.

(* the net effect of the released instalments: out of the vesting escrow to the auctioneer, in the paying coin *)
Lemma net_rel_xfers a t pd x d : forall vs,
  (forall v, In v vs -> vq_due t v = true -> v_denom v = pd) ->
  Checkers.net (rel_xfers a t vs) x d
  = ind (addr_eqb (User (a_auctioneer a)) x && N.eqb pd d) (sumZ (map v_amt (due_of t vs)))
    - ind (addr_eqb (Escrow Vesting (a_id a)) x && N.eqb pd d) (sumZ (map v_amt (due_of t vs))).
Proof.
  induction vs as [|v vs IH]; intros Hd.
  - cbn. unfold ind. destruct (_ && _), (_ && _); reflexivity.
  - rewrite rel_xfers_cons, due_of_cons. specialize (IH (fun y Hy => Hd y (or_intror Hy))).
    destruct (vq_due t v) eqn:D; cbn [andb]; [|exact IH].
    pose proof (Hd v (or_introl eq_refl) D) as Ed. cbn [map]. rewrite ListFacts.sumZ_cons.
    destruct (Z.eqb_spec (v_amt v) 0) as [E0|E0]; cbn [negb].
    + rewrite IH, E0, Z.add_0_l. reflexivity.
    + rewrite net_cons, IH. cbn [xfer_of x_from x_to x_denom x_amt]. rewrite Ed. unfold ind.
      destruct (_ && _), (_ && _); lia.
Qed.

(* read at an escrow account of the auction: only the vesting escrow pays, in the paying coin *)
Lemma net_rel_xfers_esc a t pd vs r d :
  (forall v, In v vs -> vq_due t v = true -> v_denom v = pd) ->
  Checkers.net (rel_xfers a t vs) (Escrow r (a_id a)) d
  = - ind (role_eqb r Vesting && N.eqb d pd) (sumZ (map v_amt (due_of t vs))).
Proof.
  intros Hd. rewrite (net_rel_xfers a t pd _ _ vs Hd). cbn [addr_eqb]. rewrite N.eqb_refl, andb_true_r, (N.eqb_sym pd d).
  destruct r; reflexivity.
Qed.

Lemma rel_spec_balances a t vs s s' pd :
  rel_spec a t vs s s' -> (forall v, In v vs -> vq_due t v = true -> v_denom v = pd) ->
  let paid := sumZ (map v_amt (due_of t vs)) in
  st_bal s' (Escrow Vesting (a_id a)) pd = st_bal s (Escrow Vesting (a_id a)) pd - paid
  /\ st_bal s' (User (a_auctioneer a)) pd = st_bal s (User (a_auctioneer a)) pd + paid
  /\ (forall x d, d <> pd -> st_bal s' x d = st_bal s x d)
  /\ (forall x d, x <> Escrow Vesting (a_id a) -> x <> User (a_auctioneer a) -> st_bal s' x d = st_bal s x d).
Proof.
  intros H Hd paid.
  assert (B : forall x d, st_bal s' x d = st_bal s x d + Checkers.net (rel_xfers a t vs) x d)
    by (intros; rewrite (rs_bal _ _ _ _ _ H); apply apply_xfers_net).
  split; [|split; [|split]].
  - rewrite B, (net_rel_xfers a t pd _ _ vs Hd), EqbFacts.addr_eqb_refl, N.eqb_refl. cbn [addr_eqb andb ind]. fold paid. lia.
  - rewrite B, (net_rel_xfers a t pd _ _ vs Hd), EqbFacts.addr_eqb_refl, N.eqb_refl. cbn [addr_eqb andb ind]. fold paid. lia.
  - intros x d Hne. rewrite B, (net_rel_xfers a t pd _ _ vs Hd). apply N.eqb_neq in Hne. rewrite (N.eqb_sym pd d), Hne, !andb_false_r.
    cbn [ind]. lia.
  - intros x d H1 H2. rewrite B, (net_rel_xfers a t pd _ _ vs Hd).
    apply not_eq_sym, EqbFacts.addr_eqb_neq in H1. apply not_eq_sym, EqbFacts.addr_eqb_neq in H2. rewrite H1, H2. cbn [andb ind]. lia.
Qed.

(* all that C09 states of a release that is funded, in one *)
Theorem release_loop_ok s a t :
  NoDup (map vkey (st_vqs s)) ->
  (forall v, In v (vqs_of s (a_id a)) -> 0 <= v_amt v /\ v_denom v = a_pay_denom a) ->
  sumZ (map v_amt (filter (fun v => negb (v_released v)) (vqs_of s (a_id a))))
    <= st_bal s (Escrow Vesting (a_id a)) (a_pay_denom a) ->
  exists s', release_loop s a t (vqs_of s (a_id a)) = Ok s' /\
    rel_spec a t (vqs_of s (a_id a)) s s' /\
    st_vqs s' = map (release_vq (a_id a) t) (st_vqs s) /\
    let paid := sumZ (map v_amt (due_of t (vqs_of s (a_id a)))) in
    0 <= paid /\
    st_bal s' (Escrow Vesting (a_id a)) (a_pay_denom a) = st_bal s (Escrow Vesting (a_id a)) (a_pay_denom a) - paid /\
    st_bal s' (User (a_auctioneer a)) (a_pay_denom a) = st_bal s (User (a_auctioneer a)) (a_pay_denom a) + paid /\
    (forall x d, d <> a_pay_denom a -> st_bal s' x d = st_bal s x d) /\
    (forall x d, x <> Escrow Vesting (a_id a) -> x <> User (a_auctioneer a) -> st_bal s' x d = st_bal s x d) /\
    (forall u d, st_bal s (User u) d <= st_bal s' (User u) d).
Proof.
  intros ND Hv Hs. destruct (proj2 (release_loop_pays a t _ s) (rel_xfers_funded s a t Hv Hs)) as (s' & H).
  exists s'. split; [exact H|]. apply release_loop_state in H. subst s'.
  pose proof (released_spec a t (vqs_of s (a_id a)) s) as R.
  split; [exact R|]. split; [exact (released_vqs s a t ND)|].
  assert (Hd : forall v, In v (vqs_of s (a_id a)) -> vq_due t v = true -> v_denom v = a_pay_denom a)
    by (intros v Hi _; apply Hv; exact Hi).
  destruct (rel_spec_balances a t _ s _ (a_pay_denom a) R Hd) as (B1 & B2 & B3 & B4).
  assert (Hnn : 0 <= sumZ (map v_amt (due_of t (vqs_of s (a_id a))))).
  { apply sumZ_map_nonneg. intros y Hy. apply filter_In in Hy. destruct Hy as [Hy _]. apply (Hv y Hy). }
  cbv zeta. split; [exact Hnn|]. split; [exact B1|].
  split; [exact B2|]. split; [exact B3|]. split; [exact B4|].
  intros u d. destruct (N.eq_dec d (a_pay_denom a)) as [->|Hne]; [|rewrite B3 by exact Hne; lia].
  destruct (N.eq_dec u (a_auctioneer a)) as [->|Hu]; [rewrite B2; lia|].
  rewrite B4; [lia|discriminate|congruence].
Qed.

Lemma pay_all_banked s a :
  pay_all s a = banked s (send_xf (Escrow Paying (a_id a)) (User (a_auctioneer a)) (a_pay_denom a)
                                  (st_bal s (Escrow Paying (a_id a)) (a_pay_denom a))).
Proof.
  unfold pay_all, banked, send_xf. cbv zeta. destruct (st_bal s (Escrow Paying (a_id a)) (a_pay_denom a) =? 0); [|reflexivity].
  rewrite app_nil_r. symmetry. apply with_bank_eta.
Qed.

(* ApplyVestingSchedules without a schedule: what LedgerSettle.apply_vesting_iff yields is pay_all with the status written *)
Lemma vested_no_sched s a :
  a_scheds a = [] ->
  vested s a (st_bal s (Escrow Paying (a_id a)) (a_pay_denom a)) = put_auction (pay_all s a) (set_status a Finished).
Proof.
  intros ES. unfold vested, vest_dest, new_vqs, BlockFacts.settled_st. rewrite ES, app_nil_r, pay_all_banked. reflexivity.
Qed.

Corollary no_sched_effects s a s' :
  a_scheds a = [] -> apply_vesting s a = Ok s' ->
  let r := st_bal s (Escrow Paying (a_id a)) (a_pay_denom a) in
  st_vqs s' = st_vqs s
  /\ st_xfers s' = st_xfers s ++ (if r =? 0 then [] else [{| x_from := Escrow Paying (a_id a);
                                     x_to := User (a_auctioneer a); x_denom := a_pay_denom a; x_amt := r |}])
  /\ st_bal s' (Escrow Paying (a_id a)) (a_pay_denom a) = 0
  /\ st_bal s' (User (a_auctioneer a)) (a_pay_denom a) = st_bal s (User (a_auctioneer a)) (a_pay_denom a) + r
  /\ (forall a0, find_auction s (a_id a) = Some a0 -> find_auction s' (a_id a) = Some (set_status a Finished))
  /\ (forall j, j <> a_id a -> find_auction s' j = find_auction s j).
Proof.
  intros ES H r. apply apply_vesting_iff in H. destruct H as [_ ->]. rewrite (vested_no_sched s a ES), pay_all_banked. fold r.
  split; [reflexivity|]. split; [reflexivity|]. cbn [st_bal put_auction with_auctions]. split; [|split; [|split]].
  - rewrite banked_bal, net_send_xf, addr_eqb_refl, N.eqb_refl. cbn [addr_eqb andb]. unfold ind. fold r. lia.
  - rewrite banked_bal, net_send_xf, addr_eqb_refl, N.eqb_refl. cbn [addr_eqb andb]. unfold ind. lia.
  - intros a0 F. exact (find_auction_put_same (banked s _) (set_status a Finished) a0 F).
  - intros j Hj. exact (find_auction_put_other (banked s _) (set_status a Finished) j Hj).
Qed.

(* What the precondition proofs (C18, C12, C11) need about booleans, results and the bank: the tactics b2p and p2b between a
   boolean condition of Spec.v and the propositions it stands for, when a result is Ok, and Spec.can_pay as an inequality
   per denomination. *)
From Coq Require Import ZArith NArith List Bool Arith Lia.
From FR Require Import Dec Types Bank Step Genesis Model Spec Checkers.
From FR.Proofs Require Import DecFacts.
From FR.Proofs Require Export BankFacts.
From FR.Proofs Require ListFacts EqbFacts ResFacts.
Import ListNotations.
Open Scope Z_scope.

(* turns the boolean hypothesis H into the propositions it stands for, conjunct by conjunct *)
Ltac b2p H :=
  lazymatch type of H with
  | _ && _ = true => let H' := fresh H in apply andb_true_iff in H; destruct H as [H H']; b2p H; b2p H'
  | _ || _ = false => let H' := fresh H in apply orb_false_iff in H; destruct H as [H H']; b2p H; b2p H'
  | _ || _ = true => apply orb_true_iff in H; destruct H as [H|H]; b2p H
  | _ && _ = false => apply andb_false_iff in H; destruct H as [H|H]; b2p H
  | negb _ = true => apply negb_true_iff in H; b2p H
  | negb _ = false => apply negb_false_iff in H; b2p H
  | (_ <? _) = true => apply Z.ltb_lt in H
  | (_ <? _) = false => apply Z.ltb_ge in H
  | (_ <=? _) = true => apply Z.leb_le in H
  | (_ <=? _) = false => apply Z.leb_gt in H
  | (_ =? _) = true => apply Z.eqb_eq in H
  | (_ =? _) = false => apply Z.eqb_neq in H
  | N.eqb _ _ = true => apply N.eqb_eq in H
  | N.eqb _ _ = false => apply N.eqb_neq in H
  | N.leb _ _ = true => apply N.leb_le in H
  | N.ltb _ _ = true => apply N.ltb_lt in H
  | N.ltb _ _ = false => apply N.ltb_ge in H
  | Nat.leb _ _ = true => apply Nat.leb_le in H
  | Nat.ltb _ _ = true => apply Nat.ltb_lt in H
  | Nat.ltb _ _ = false => apply Nat.ltb_ge in H
  | status_eqb _ _ = true => apply EqbFacts.status_eqb_eq in H
  | status_eqb _ _ = false => apply not_true_iff_false in H; rewrite EqbFacts.status_eqb_eq in H
  | atype_eqb _ _ = true => apply EqbFacts.atype_eqb_eq in H
  | atype_eqb _ _ = false => apply not_true_iff_false in H; rewrite EqbFacts.atype_eqb_eq in H
  | true = false => discriminate H
  | false = true => discriminate H
  | _ => idtac
  end.

(* a goal that is a conjunction of comparisons, into the propositions: what b2p does to a hypothesis *)
Ltac p2b :=
  repeat match goal with
  | |- _ && _ = true => apply andb_true_iff; split
  | |- (_ <? _) = true => apply Z.ltb_lt
  | |- (_ <=? _) = true => apply Z.leb_le
  | |- (_ =? _) = true => apply Z.eqb_eq
  | |- N.eqb _ _ = true => apply N.eqb_eq
  | |- N.leb _ _ = true => apply N.leb_le
  | |- Nat.leb _ _ = true => apply Nat.leb_le
  | |- status_eqb _ _ = true => apply EqbFacts.status_eqb_eq
  | |- atype_eqb _ _ = true => apply EqbFacts.atype_eqb_eq
  | |- true = true => reflexivity
  | |- _ || _ = true => apply orb_true_iff; rewrite ?Z.ltb_lt, ?Z.leb_le, ?N.eqb_eq
  end.

Definition is_ok {A} (r : res A) : Prop := exists x, r = Ok x.

Lemma is_ok_Ok {A} (x : A) : is_ok (Ok x).
Proof. exists x. reflexivity. Qed.
Lemma not_ok_Err {A} c t : ~ is_ok (@Err A c t).
Proof. intros (x & H). discriminate H. Qed.
Lemma not_ok_fail {A} s c : ~ is_ok (@fail A s c).
Proof. apply not_ok_Err. Qed.

(* a handler characterised by ResFacts.yields is Ok exactly under its guards *)
Lemma is_ok_yields {A} (r : res A) P v : ResFacts.yields r P v -> (is_ok r <-> P).
Proof. exact (ResFacts.yields_is_ok r P v). Qed.

(* the same for a handler that first looks a record up: it succeeds with x exactly when some record a is found (F) under
   its guards (G), and then x is v a *)
Lemma is_ok_found {A B} (r : res A) (F G : B -> Prop) (v : B -> A) :
  (forall x, r = Ok x <-> exists a, F a /\ G a /\ x = v a) -> (is_ok r <-> exists a, F a /\ G a).
Proof.
  intros H. split.
  - intros [x Hx]. apply H in Hx. destruct Hx as (a & Fa & Ga & _). eauto.
  - intros (a & Fa & Ga). exists (v a). apply H. eauto.
Qed.
Lemma found_some {B} (o : option B) (G : B -> Prop) :
  (exists a, o = Some a /\ G a) <-> match o with Some a => G a | None => False end.
Proof.
  destruct o as [a|]; [|split; [intros (a & E & _); discriminate E|intros []]].
  split; [intros (a0 & E & H); injection E as <-; exact H|intros H; exists a; auto].
Qed.

Lemma accepted_commit s r : fst (commit s r) = Accepted <-> is_ok r.
Proof.
  destruct r as [x|c t]; cbn [commit fst]; split; intros H.
  - apply is_ok_Ok.
  - reflexivity.
  - discriminate H.
  - exfalso. exact (not_ok_Err _ _ H).
Qed.

Lemma accepted_deliver s m :
  fst (deliver_tx s m) = Accepted <-> match check_basic m with Some c => is_ok (handle s c) | None => False end.
Proof.
  unfold deliver_tx. destruct (check_basic m) as [c|]; [apply accepted_commit|].
  cbn [fst]. split; [intros H; discriminate H|intros []].
Qed.

Lemma commit_ok s r s' : r = Ok s' -> commit s r = (Accepted, s').
Proof. intros ->. reflexivity. Qed.

Lemma no_veto_ext s s' k : st_listeners s' = st_listeners s -> no_veto s' k = no_veto s k.
Proof. unfold no_veto. intros ->. reflexivity. Qed.

Lemma send_ok_iff s from to d amt :
  is_ok (send s from to d amt) <-> amt = 0 \/ (0 < amt /\ amt <= st_bal s from d).
Proof.
  split.
  - intros [s1 H]. apply send_iff in H. apply H.
  - intros H. exists (sent s from to d amt). apply send_iff. split; [exact H|reflexivity].
Qed.

Lemma can_pay_unfold s u l :
  can_pay s u l = forallb (fun d => coins_amount l d <=? st_bal s (User u) d) (map fst l).
Proof. reflexivity. Qed.

Lemma coins_amount_nil d : coins_amount [] d = 0.
Proof. reflexivity. Qed.
Lemma coins_amount_cons d d0 a l : coins_amount ((d0, a) :: l) d = (if N.eqb d0 d then a else 0) + coins_amount l d.
Proof. unfold coins_amount. cbn [filter fst]. destruct (N.eqb d0 d); reflexivity. Qed.
Lemma coins_amount_app d l1 l2 : coins_amount (l1 ++ l2) d = coins_amount l1 d + coins_amount l2 d.
Proof. unfold coins_amount. rewrite filter_app, map_app. apply ListFacts.sumZ_app. Qed.
Lemma coins_amount_nonneg d l : (forall c, In c l -> 0 <= snd c) -> 0 <= coins_amount l d.
Proof.
  intros H. apply ListFacts.sumZ_map_nonneg.
  intros c Hc. apply filter_In in Hc. apply H, Hc.
Qed.
Lemma coins_amount_notin d l : ~ In d (map fst l) -> coins_amount l d = 0.
Proof.
  intros H. unfold coins_amount. replace (filter (fun c => N.eqb (fst c) d) l) with (@nil (N * Z)); [reflexivity|].
  symmetry. apply ListFacts.filter_nil_iff.
  intros c Hc. apply N.eqb_neq. intros E.
  apply H. rewrite <- E. apply in_map. exact Hc.
Qed.

Lemma can_pay_iff s u l :
  (forall d, 0 <= st_bal s (User u) d) ->
  (can_pay s u l = true <-> forall d, coins_amount l d <= st_bal s (User u) d).
Proof.
  intros Hb. rewrite can_pay_unfold, forallb_forall. split.
  - intros H d. destruct (in_dec N.eq_dec d (map fst l)) as [Hin|Hnin].
    + apply Z.leb_le. apply H. exact Hin.
    + rewrite (coins_amount_notin d l Hnin). apply Hb.
  - intros H d _. apply Z.leb_le. apply H.
Qed.

Lemma can_pay_snoc s u cs d amt :
  (forall d, 0 <= st_bal s (User u) d) -> 0 <= amt ->
  can_pay s u (cs ++ [(d, amt)]) = can_pay s u cs && (coins_amount cs d + amt <=? st_bal s (User u) d).
Proof.
  intros Hb Ha. apply eq_iff_eq_true. rewrite andb_true_iff, Z.leb_le, !can_pay_iff by exact Hb. split.
  - intros H. split.
    + intros d'. specialize (H d'). rewrite coins_amount_app, coins_amount_cons, coins_amount_nil in H.
      destruct (N.eqb d d'); lia.
    + specialize (H d). rewrite coins_amount_app, coins_amount_cons, coins_amount_nil, N.eqb_refl in H. lia.
  - intros [H1 H2] d'. rewrite coins_amount_app, coins_amount_cons, coins_amount_nil.
    destruct (N.eqb d d') eqn:E.
    + apply N.eqb_eq in E. subst d'. lia.
    + specialize (H1 d'). lia.
Qed.

Lemma pay_of_qty_pos a p : 0 < a -> 0 < p -> 0 < pay_of_qty a p.
Proof. exact (DecFacts.pay_of_qty_pos a p). Qed.

Lemma coins_ok_pos l : forall low, coins_ok l low = true -> forall c, In c l -> 0 < snd c.
Proof.
  induction l as [|[d a] r IH]; intros low H c Hc.
  - destruct Hc.
  - cbn [coins_ok] in H. apply andb_true_iff in H. destruct H as [H H3].
    apply andb_true_iff in H. destruct H as [H1 _]. destruct Hc as [<-|Hc].
    + cbn [snd]. apply Z.ltb_lt. exact H1.
    + exact (IH _ H3 c Hc).
Qed.

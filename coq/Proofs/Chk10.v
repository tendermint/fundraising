(* Checker link for C10: Checkers.c10_ok holds of every transition of the model from a state satisfying the invariant.
   (1) every bid of the post-state belongs to an account that had an allow-list entry in the pre-state
       (AllowFacts.allow_rel_step + the invariant part bids_allowed);
   (2) with the switch off no transaction changes the allow-list (AllowFacts.gate_tx);
   (3) with the switch off MsgAddAllowedBidder is rejected (AllowFacts.gate_add_rejected). *)
From Coq Require Import ZArith List Bool.
From FR Require Import Types Model Checkers.
From FR.Proofs Require Import InvDefs FixedFacts AllowFacts EqbFacts.
Import ListNotations.
Open Scope Z_scope.

Theorem c10_ok_model s o : Inv s -> c10_ok (model_trans s o) = true.
Proof.
  intros I. pose proof (Inv_ghost_reset s I) as I0.
  rewrite model_trans_eq. cbv zeta. unfold c10_ok. cbn [t_post t_pre t_op t_class].
  apply andb_true_iff. split; [apply andb_true_iff; split|].
  - apply forallb_forall. intros b' Hb'. apply orb_true_iff. right.
    assert (K : find_allowed s (b_auction b') (b_bidder b') <> None).
    { exact (allow_rel_entry (ghost_reset s) _ b' (allow_rel_step _ o) (inv_bids_allowed _ I0) Hb'). }
    destruct o; try reflexivity;
      (destruct (find_allowed s (b_auction b') (b_bidder b')); [reflexivity|exfalso; apply K; reflexivity]).
  - destruct o as [m| | | | | | |]; try reflexivity.
    destruct (st_switch s) eqn:Sw; [reflexivity|]. cbn [orb step].
    rewrite (gate_tx (ghost_reset s) Sw m). apply same_allowed_refl.
  - remember (class_of (fst (step (ghost_reset s) o))) as k eqn:Ek.
    destruct o as [m| | | | | | |]; try (destruct k; reflexivity).
    destruct m as [| | | | |a ea who max|]; try (destruct k; reflexivity).
    destruct (st_switch s) eqn:Sw; [destruct k; reflexivity|].
    cbn [step] in Ek. rewrite (gate_add_rejected (ghost_reset s) Sw a ea who max) in Ek. subst k. reflexivity.
Qed.

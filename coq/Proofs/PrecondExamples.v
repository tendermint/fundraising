(* A small concrete state satisfying WF, used by the Examples of Properties/C18.v, C12.v, C11.v. *)
From Coq Require Import ZArith NArith List.
From FR Require Import Dec Types.
From FR.Proofs Require Import PrecondFacts.
Import ListNotations.
Open Scope Z_scope.

Definition ex_fixed : auction :=
  {| a_id := 0; a_type := FixedPrice; a_auctioneer := 7; a_upper := false; a_start_price := P / 2;
     a_sell_denom := 1; a_sell_amt := 1000; a_pay_denom := 2; a_scheds := []; a_start := 0; a_ends := [100];
     a_status := Started; a_remaining := 1000; a_min_price := 0; a_matched_price := 0; a_max_round := 0; a_rate := 0 |}.
Definition ex_batch : auction :=
  {| a_id := 1; a_type := Batch; a_auctioneer := 7; a_upper := false; a_start_price := P;
     a_sell_denom := 1; a_sell_amt := 1000; a_pay_denom := 2; a_scheds := []; a_start := 0; a_ends := [100];
     a_status := Started; a_remaining := 0; a_min_price := P / 10; a_matched_price := 0; a_max_round := 2; a_rate := P / 10 |}.
Definition ex_standby : auction :=
  {| a_id := 2; a_type := FixedPrice; a_auctioneer := 7; a_upper := false; a_start_price := P;
     a_sell_denom := 1; a_sell_amt := 50; a_pay_denom := 2; a_scheds := []; a_start := 60; a_ends := [100];
     a_status := StandBy; a_remaining := 50; a_min_price := 0; a_matched_price := 0; a_max_round := 0; a_rate := 0 |}.
Definition ex_bid : bid :=
  {| b_auction := 1; b_id := 1; b_bidder := 8; b_type := BWorth; b_price := P; b_denom := 2; b_amt := 10;
     b_matched := false |}.
Definition ex_state : state :=
  {| st_params := {| p_cfee := [(2%N, 5)]; p_bfee := [(2%N, 1)]; p_period := 1 |};
     st_auctions := [ex_fixed; ex_batch; ex_standby]; st_bids := [ex_bid];
     st_allowed := [{| al_auction := 0; al_bidder := 8; al_max := 100 |};
                    {| al_auction := 1; al_bidder := 8; al_max := 100 |}];
     st_vqs := []; st_aseq := 3; st_bseq := fun a => if N.eqb a 1 then 1%N else 0%N; st_mlen := fun _ => 0;
     st_bal := fun _ _ => 40; st_now := 50; st_listeners := [[9%N]]; st_switch := true;
     st_xfers := []; st_trace := [] |}.

Example ex_state_WF : WF ex_state.
Proof.
  constructor.
  - intros a d. cbn. discriminate.
  - intros c [<-|[]]. cbn. discriminate.
  - intros c [<-|[]]. cbn. discriminate.
  - intros b a [<-|[]] Hf _.
    assert (E : find_auction ex_state (b_auction ex_bid) = Some ex_batch) by (vm_compute; reflexivity).
    rewrite E in Hf. injection Hf as <-. left. split; reflexivity.
  - intros a [<-|[<-|[<-|[]]]]; cbn; discriminate.
Qed.

Definition coin (d : N) (a : Z) : mcoin := {| mc_denom := Some d; mc_amt := Some a |}.

Lemma ex_state_bids_pos : bids_pos ex_state.
Proof. intros b [<-|[]]. split; reflexivity. Qed.

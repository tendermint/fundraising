(* C13, last clause: "there are never more than one plus the maximum extended rounds of them, so every auction
   eventually settles".  From any state satisfying the global invariant, with no listener registered and a non-negative extension period, a started batch
   auction is settled after at most max_extended_round + 2 blocks whose time is late enough, whatever the bids
   (the sweep order used is the price-descending one, LiveFacts.natural_orc); and, given also vesting_pending, any
   auction at all is finished or cancelled after at most max_extended_round + 4 such blocks (auction_eventually_terminal).
   The idea: rank counts the blocks an auction can still need (rounds left, plus 3, 2, 1, 0 by status), overdue says the
   block time is past whatever it still waits for; a block at such a time lowers the rank and keeps overdue
   (late_block_rank, late_block_vesting, together late_block_lowers), so both theorems are a descent on the rank. *)
From Coq Require Import ZArith NArith List Lia.
From FR Require Import Dec Types Match Step Model Spec.
From FR.Proofs Require Import InvDefs FrameFacts BlockFacts BlockWalk.
From FR.Proofs Require LifeTheorems VestingInv LedgerSettle.
From FR.Proofs Require Import InvAll LiveFacts VestingPending.
Import ListNotations.
Open Scope Z_scope.

(* n blocks at time T, each with the natural sweep orders of its pre-state *)
Fixpoint blocks (s : state) (T : Z) (n : nat) : state :=
  match n with
  | O => s
  | S k => blocks (snd (step s (OBlock T (natural_orc s)))) T k
  end.

Definition rounds_left (a : auction) : nat := N.to_nat (a_max_round a) + 1 - length (a_ends a).
Definition is_settled (a : auction) : Prop := a_status a = VestingS \/ a_status a = Finished.

Lemma natural_block s T :
  Inv s -> st_listeners s = [] ->
  let s' := snd (step s (OBlock T (natural_orc s))) in
  Inv s' /\ st_listeners s' = [] /\ st_params s' = st_params s /\
  forall id a, find_auction s id = Some a ->
    exists a', find_auction s' id = Some a' /\ block_rel T (natural_orc s) s a a'.
Proof.
  intros I HL s'.
  assert (Hnv : no_veto s H_BeforeAllocated = true) by (unfold no_veto; rewrite HL; reflexivity).
  destruct (block_never_fails s T (natural_orc s) I Hnv (natural_oracle_ok s T I)) as [Hok I'].
  pose proof (step_block_ok s (OBlock T (natural_orc s)) eq_refl Hok) as Hb.
  pose proof (begin_block_rel _ _ _ _ (Inv_ids_ok s I) Hb) as A.
  pose proof (we_glob _ _ (begin_block_eff _ _ _ _ Hb)) as G.
  split; [exact I'|]. split; [unfold s'; rewrite (ge_listeners G); exact HL|]. split; [exact (ge_params G)|exact A].
Qed.

Definition rank (a : auction) : nat :=
  match a_status a with
  | StandBy => rounds_left a + 3 | Started => rounds_left a + 2 | VestingS => 1 | Finished | Cancelled => 0
  end.

(* what the descent carries: T is past the start, if that is still to come, and past every end time the auction can
   still get with the rounds it has left (late_for below, the hypothesis of the theorem, bounds this once for all rounds) *)
Definition overdue (pd : Z) (a : auction) (T : Z) : Prop :=
  (a_status a = StandBy -> a_start a <= T) /\ last_end a + Z.of_nat (rounds_left a) * pd <= T.

Lemma overdue_of_bound s a T :
  0 <= p_period (st_params s) -> (a_status a = StandBy -> a_start a <= T) ->
  last_end a + Z.of_N (a_max_round a + 1) * (p_period (st_params s) * day_ns) <= T ->
  overdue (p_period (st_params s) * day_ns) a T.
Proof.
  intros Hp Hstart Hend. split; [exact Hstart|].
  assert (Hday : 0 <= p_period (st_params s) * day_ns) by (unfold day_ns; lia).
  assert (Hr : Z.of_nat (rounds_left a) <= Z.of_N (a_max_round a + 1)) by (unfold rounds_left; lia).
  pose proof (Z.mul_le_mono_nonneg_r _ _ _ Hday Hr). lia.
Qed.

Lemma late_block_rank s id a T :
  Inv s -> st_listeners s = [] -> 0 <= p_period (st_params s) -> find_auction s id = Some a ->
  overdue (p_period (st_params s) * day_ns) a T -> a_status a <> VestingS ->
  exists a', find_auction (blocks s T 1) id = Some a' /\ LifeTheorems.terms0_eq a a'
    /\ (a_status a = Started -> a_status a' = Started \/ is_settled a')
    /\ overdue (p_period (st_params s) * day_ns) a' T /\ (rank a' < rank a \/ rank a = 0)%nat.
Proof.
  intros I HL Hp Fa L Hv. pose proof L as [L1 L2]. destruct (natural_block s T I HL) as (_ & _ & _ & A).
  destruct (A id a Fa) as (a' & Fa' & R). exists a'. split; [exact Fa'|].
  split; [exact (LifeTheorems.block_rel_terms _ _ _ _ _ R)|].
  set (pd := p_period (st_params s) * day_ns) in *.
  assert (Hpd : 0 <= pd) by (unfold pd, day_ns; lia).
  pose proof (Z.mul_nonneg_nonneg _ _ (Nat2Z.is_nonneg (rounds_left a)) Hpd) as Hrl.
  (* closing a started auction, whether its record x is a or a with the matched price set *)
  assert (Settles : forall x, a_status a = Started -> rounds_left x = rounds_left a -> last_end x = last_end a ->
            let a1 := set_status x (settled_st a) in
            is_settled a1 /\ overdue pd a1 T /\ (rank a1 < rank a)%nat).
  { intros x St Hr Hl a1. assert (Hs : is_settled a1) by exact (LedgerSettle.settled_st_cases a).
    split; [exact Hs|]. split; [split|].
    - intros E. destruct Hs as [Hs|Hs]; congruence.
    - change (last_end x + Z.of_nat (rounds_left x) * pd <= T). rewrite Hr, Hl. exact L2.
    - unfold rank. destruct Hs as [Hs|Hs]; rewrite Hs, St; lia. }
  destruct (block_rel_out _ _ _ _ _ R) as [H|St Due|St Due Ty|order mi St Due Ty _ _|St _]; [| | | |contradiction].
  - (* not due: then the status is finished or cancelled *)
    split; [auto|].
    destruct (a_status a) eqn:St; [specialize (L1 eq_refl); lia|lia|destruct (Hv eq_refl)| |];
      (split; [exact L|right; unfold rank; rewrite St; reflexivity]).
  - (* opened *)
    split; [congruence|]. split; [split; [discriminate|exact L2]|].
    left. unfold rank, rounds_left. cbn [a_status set_status a_ends a_max_round]. rewrite St. lia.
  - (* a fixed price auction closed *)
    destruct (Settles a St eq_refl eq_refl) as (Hs & L' & Hr). auto.
  - destruct (decision s a mi) eqn:D.
    + (* extended: one round less to go, one period later *)
      apply decision_true_iff in D. destruct D as [D _].
      pose proof (inv_auctions _ I) as W. unfold auctions_wf in W. rewrite Forall_forall in W.
      pose proof (awf_ends _ (W a (proj1 (find_auction_some _ _ _ Fa)))) as Hb.
      assert (Hr : (rounds_left (extended s a mi) + 1 = rounds_left a)%nat).
      { unfold rounds_left, extended. cbn [a_ends a_max_round set_ends set_matched_price].
        rewrite app_length. cbn [length]. lia. }
      assert (Hl : last_end (extended s a mi) = last_end a + pd)
        by (unfold last_end, extended; cbn [a_ends set_ends]; apply last_last).
      assert (Hs : a_status (extended s a mi) = Started) by exact St.
      split; [auto|]. split; [split; [congruence|]|left; unfold rank; rewrite Hs, St; lia].
      rewrite Hl. replace (Z.of_nat (rounds_left a)) with (Z.of_nat (rounds_left (extended s a mi)) + 1) in L2 by lia.
      rewrite Z.mul_add_distr_r in L2. lia.
    + (* a batch auction closed *)
      destruct (Settles (set_matched_price a (mi_price mi)) St eq_refl eq_refl) as (Hs & L' & Hr). auto.
Qed.

Lemma settle_descent T id : forall k s a,
  (rank a <= k + 1)%nat -> Inv s -> st_listeners s = [] -> 0 <= p_period (st_params s) -> find_auction s id = Some a ->
  overdue (p_period (st_params s) * day_ns) a T -> a_status a = Started \/ is_settled a ->
  exists n a', (n <= k)%nat /\ find_auction (blocks s T n) id = Some a' /\ is_settled a'.
Proof.
  induction k as [|k IH]; intros s a Hk I HL Hp Fa L [St|Hs]; try (exists 0%nat, a; repeat split; [lia|exact Fa|exact Hs]).
  - unfold rank in Hk. rewrite St in Hk. lia.
  - destruct (late_block_rank s id a T I HL Hp Fa L) as (a' & Fa' & _ & Hst & L' & Hr); [congruence|].
    destruct (natural_block s T I HL) as (I' & HL' & HP' & _). cbn [blocks] in Fa'.
    assert (Ra : rank a = (rounds_left a + 2)%nat) by (unfold rank; rewrite St; reflexivity).
    assert (Hr' : (rank a' <= k + 1)%nat) by lia.
    destruct (IH _ a' Hr' I' HL') as (n & a'' & Hn & Fn & Hs); rewrite ?HP'; auto.
    exists (S n), a''. repeat split; [lia|exact Fn|exact Hs].
Qed.

Definition is_terminal (a : auction) : Prop := a_status a = Finished \/ a_status a = Cancelled.

(* natural_block with vesting_pending carried along *)
Lemma natural_block_pending s id a T :
  Inv s -> vesting_pending s -> st_listeners s = [] -> find_auction s id = Some a ->
  let s' := snd (step s (OBlock T (natural_orc s))) in
  Inv s' /\ vesting_pending s' /\ st_listeners s' = [] /\ st_params s' = st_params s /\
  exists a', find_auction s' id = Some a' /\ block_rel T (natural_orc s) s a a'.
Proof.
  intros I VP HL Fa s'. destruct (natural_block s T I HL) as (I' & HL' & HP' & A).
  split; [exact I'|]. split; [apply vesting_pending_step; assumption|]. split; [exact HL'|].
  split; [exact HP'|exact (A id a Fa)].
Qed.

(* T is late for auction a: past its start, past every end time it can still get, past every release time *)
Definition late_for (s : state) (a : auction) (T : Z) : Prop :=
  a_start a <= T /\
  last_end a + Z.of_N (a_max_round a + 1) * (p_period (st_params s) * day_ns) <= T /\
  (forall v, In v (a_scheds a) -> s_time v <= T).

Lemma late_block_vesting s id a T :
  Inv s -> vesting_pending s -> st_listeners s = [] -> find_auction s id = Some a -> a_status a = VestingS ->
  (forall v, In v (a_scheds a) -> s_time v <= T) ->
  find_auction (blocks s T 1) id = Some (set_status a Finished).
Proof.
  intros I VP HL Fa St Hlate. cbn [blocks].
  destruct (natural_block_pending s id a T I VP HL Fa) as (_ & _ & _ & _ & a' & Fa' & R).
  rewrite Fa'. f_equal. unfold block_rel in R. rewrite St in R.
  pose proof (find_auction_some _ _ _ Fa) as [Hin Hid]. subst id.
  destruct (VP a Hin St) as (l & v & E & Hr).
  assert (Hd : last_due T (vqs_of s (a_id a)) = true).
  { unfold last_due. rewrite E, rev_app_distr. cbn [rev app]. rewrite Hr. cbn [negb andb].
    apply Z.leb_le.
    (* the release time of a queue entry is one of the schedule's times *)
    assert (Hv' : In v (vqs_of s (a_id a))) by (rewrite E; apply in_or_app; right; now left).
    pose proof (VestingInv.vo_time (VestingInv.vqs_wf_own s _ a v (inv_vqs _ I) Fa Hv')) as Ht.
    apply in_map_iff in Ht. destruct Ht as (sc & <- & Hsc).
    apply Hlate, Hsc. }
  rewrite Hd in R. exact R.
Qed.

Lemma rank_0_terminal a : rank a = 0%nat -> is_terminal a.
Proof. unfold rank, is_terminal. destruct (a_status a); intros H; auto; lia. Qed.

Lemma late_block_lowers s id a T :
  Inv s -> vesting_pending s -> st_listeners s = [] -> 0 <= p_period (st_params s) -> find_auction s id = Some a ->
  overdue (p_period (st_params s) * day_ns) a T -> (forall v, In v (a_scheds a) -> s_time v <= T) -> rank a <> 0%nat ->
  exists a', find_auction (blocks s T 1) id = Some a' /\ a_scheds a' = a_scheds a
    /\ overdue (p_period (st_params s) * day_ns) a' T /\ (rank a' < rank a)%nat.
Proof.
  intros I VP HL Hp Fa L Hrel Hr0.
  assert (Hv : a_status a = VestingS \/ a_status a <> VestingS) by (destruct (a_status a); auto; right; discriminate).
  destruct Hv as [St|Hv].
  - exists (set_status a Finished). split; [exact (late_block_vesting s id a T I VP HL Fa St Hrel)|].
    split; [reflexivity|]. split; [split; [discriminate|apply L]|]. unfold rank. cbn [a_status set_status]. rewrite St. lia.
  - destruct (late_block_rank s id a T I HL Hp Fa L Hv) as (a' & Fa' & Tm & _ & L' & Hr).
    exists a'. split; [exact Fa'|]. split; [exact (LifeTheorems.terms0_scheds _ _ Tm)|]. split; [exact L'|lia].
Qed.

Lemma terminal_descent T id : forall k s a,
  (rank a <= k)%nat -> Inv s -> vesting_pending s -> st_listeners s = [] -> 0 <= p_period (st_params s) ->
  find_auction s id = Some a -> overdue (p_period (st_params s) * day_ns) a T ->
  (forall v, In v (a_scheds a) -> s_time v <= T) ->
  exists n a', (n <= k)%nat /\ find_auction (blocks s T n) id = Some a' /\ is_terminal a'.
Proof.
  induction k as [|k IH]; intros s a Hk I VP HL Hp Fa L Hrel.
  - exists 0%nat, a. repeat split; [lia|exact Fa|apply rank_0_terminal; lia].
  - destruct (Nat.eq_dec (rank a) 0) as [E|E]; [exists 0%nat, a; repeat split; [lia|exact Fa|exact (rank_0_terminal a E)]|].
    destruct (late_block_lowers s id a T I VP HL Hp Fa L Hrel E) as (a' & Fa' & Hsc & L' & Hr).
    destruct (natural_block_pending s id a T I VP HL Fa) as (I' & VP' & HL' & HP' & _). cbn [blocks] in Fa'.
    assert (Hr' : (rank a' <= k)%nat) by lia.
    destruct (IH _ a' Hr' I' VP' HL') as (n & a'' & Hn & Fn & Ht); rewrite ?HP', ?Hsc; try assumption.
    exists (S n), a''. repeat split; [lia|exact Fn|exact Ht].
Qed.

Theorem auction_eventually_terminal s id a T :
  Inv s -> vesting_pending s -> st_listeners s = [] -> 0 <= p_period (st_params s) ->
  find_auction s id = Some a -> late_for s a T ->
  exists n a', (n <= N.to_nat (a_max_round a) + 4)%nat /\ find_auction (blocks s T n) id = Some a' /\ is_terminal a'.
Proof.
  intros I VP HL Hp Fa (Hstart & Hend & Hrel). apply (terminal_descent T id _ s a); try assumption.
  - unfold rank, rounds_left. destruct (a_status a); lia.
  - apply overdue_of_bound; auto.
Qed.

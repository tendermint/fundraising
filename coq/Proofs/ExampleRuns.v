(* The example histories of the model's example files (ExcessExamples.v, InvStaticExamples.v: files that hold no proofs), each
   evaluated once.  For a history or state X, X_nf is the state it leaves, written out, and X_eq says so
   (c01_histK_eq : run c01_init c01_histK = c01_histK_nf); each X_nf is computed from that of the history one operation
   shorter, by that one step.  An Example rewrites with X_eq before it evaluates.  Every other example history has its
   X_nf and X_eq directly after its definition, in the file that defines it.
   Why: the checker that re-reads the compiled files has no bytecode machine and re-checks every evaluation by lazy
   conversion, so a history run inside twenty examples is paid for twenty times.  For the same reason an example that reads
   one step several times names it first (set (r := step _ _). revert r. vm_compute): a let is evaluated once. *)
From Coq Require Import ZArith NArith List.
From FR Require Import Types Model.
From FR.Proofs Require Import ExcessExamples InvStaticExamples.
From FR.Proofs Require TxFacts.
Import ListNotations.
Open Scope Z_scope.

(* hist0: c01_hist1 before its bid *)
Definition c01_hist0_nf : state := Eval vm_compute in run c01_init [c01_create; c01_allow].
Lemma c01_hist0_eq : run c01_init [c01_create; c01_allow] = c01_hist0_nf.
Proof. vm_compute. reflexivity. Qed.

Definition c01_hist1_nf : state := Eval vm_compute in snd (step c01_hist0_nf c01_bid).
Lemma c01_hist1_eq : run c01_init c01_hist1 = c01_hist1_nf.
Proof. change c01_hist1 with ([c01_create; c01_allow] ++ [c01_bid]). rewrite TxFacts.run_snoc, c01_hist0_eq. vm_compute. reflexivity. Qed.

Definition c01_hist2_nf : state := Eval vm_compute in snd (step c01_hist1_nf c01_close).
Lemma c01_hist2_eq : run c01_init c01_hist2 = c01_hist2_nf.
Proof. change c01_hist2 with (c01_hist1 ++ [c01_close]). rewrite TxFacts.run_snoc, c01_hist1_eq. vm_compute. reflexivity. Qed.

Definition c01_hist3_nf : state := Eval vm_compute in snd (step c01_hist1_nf c01_gift).
Lemma c01_hist3_eq : run c01_init c01_hist3 = c01_hist3_nf.
Proof. change c01_hist3 with (c01_hist1 ++ [c01_gift]). rewrite TxFacts.run_snoc, c01_hist1_eq. vm_compute. reflexivity. Qed.

Definition c01_hist4_nf : state := Eval vm_compute in snd (step c01_hist3_nf c01_close).
Lemma c01_hist4_eq : run c01_init c01_hist4 = c01_hist4_nf.
Proof. change c01_hist4 with (c01_hist3 ++ [c01_close]). rewrite TxFacts.run_snoc, c01_hist3_eq. vm_compute. reflexivity. Qed.

Definition c01_hist5_nf : state := Eval vm_compute in snd (step c01_hist4_nf c01_release).
Lemma c01_hist5_eq : run c01_init c01_hist5 = c01_hist5_nf.
Proof. change c01_hist5 with (c01_hist4 ++ [c01_release]). rewrite TxFacts.run_snoc, c01_hist4_eq. vm_compute. reflexivity. Qed.

Definition c19_s_nf : state := Eval vm_compute in c19_s.
Lemma c19_s_eq : c19_s = c19_s_nf.
Proof. vm_compute. reflexivity. Qed.

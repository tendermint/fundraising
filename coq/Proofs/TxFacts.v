(* What each transaction / API call does.  One characterisation per handler h: it succeeds exactly under its guards (a
   record h_ok with one named field per guard; a plain conjunction where there are three), and then leaves the state
   h_post, an explicit term over the state before (the store updates around hooked around banked h_xf, the transfers it
   books).  Each but update_params_iff is one walk along the handler with the yields lemmas.  Then tx_shape, the one
   relation for all operations but blocks and GENESIS, whose constructors carry these states and guards; its inversions
   tx_cancel_inv, tx_place_inv, tx_modify_inv give an accepted message the record of the handler back; and what follows
   from it for one auction (tx_auction), for the others (tx_frame), for ids (creation) and bids.  The fields of a state
   h_post compute; the record it writes is read by cancel_post_find, place_post_find, modify_post_find.
   At the end run_ind, the induction over a history, and how run splits (run_app, run_snoc, run_cons). *)
From Coq Require Import ZArith NArith List Bool Arith Lia.
From FR Require Import Dec Types Bank Match Step Genesis Model Spec.
From FR.Proofs Require Import ResFacts EqbFacts HookFacts FrameFacts ListFacts VestingFacts Ledger InvDefs.
From FR.Proofs Require BankFacts DecFacts.
Import ListNotations.
Open Scope Z_scope.

Definition is_create (m : msg) : bool :=
  match m with MCreateFixed _ _ _ _ _ _ _ | MCreateBatch _ _ _ _ _ _ _ _ _ _ => true | _ => false end.

(* ValidateBasic: the call check_basic yields, and what it guarantees of it. *)
Lemma check_basic_inv m c :
  check_basic m = Some c ->
  match m with
  | MCreateFixed _ _ _ _ _ start end_ => exists u up p sd sa pd l, c = CCreateFixed u up p sd sa pd l start end_
  | MCreateBatch _ _ _ _ _ _ maxr _ start end_ =>
      exists u up p mp sd sa pd l r, c = CCreateBatch u up p mp sd sa pd l maxr r start end_
  | MCancel who a => exists u up, who = AGood up u /\ c = CCancel u up a
  | MPlaceBid who a _ _ _ => exists u up bt p d amt, who = AGood up u /\ c = CPlaceBid u a bt p d amt
  | MModifyBid who a b _ _ => exists u up p d amt, who = AGood up u /\ c = CModifyBid u a b p d amt
  | MAddAllowed a ea _ max => exists up u, c = CAddAllowed a ea up u max
  | MUpdateParams auth cfee bfee period => c = CUpdateParams auth cfee bfee period
  end.
Proof.
  destruct m; cbn [check_basic]; intros H.
  (* every guard of check_basic is a match whose other branches are None *)
  all: repeat match type of H with context [match ?x with _ => _ end] => destruct x; try discriminate H end.
  all: injection H as <-; repeat eexists.
Qed.

(* InvDefs.scheds_wf, for schedules and an end time that are not yet in a record *)
Definition scheds_chk (vs : list sched) (end_ : Z) : Prop := vs = [] \/ scheds_ok vs end_ year1_ns 0 = true.

(* what ValidateBasic guarantees of the call it yields *)
Definition cmsg_wf (c : cmsg) : Prop :=
  match c with
  | CCreateFixed _ _ price sd samt pd vs _ end_ => 0 < price /\ 0 < samt /\ sd <> pd /\ scheds_chk vs end_
  | CCreateBatch _ _ price minp sd samt pd vs _ rate _ end_ =>
      0 < price /\ 0 < minp /\ 0 < samt /\ sd <> pd /\ 0 < rate /\ scheds_chk vs end_
  | CPlaceBid _ _ _ price _ amt => 0 < price /\ 0 < amt
  | CModifyBid _ _ _ price _ amt => 0 < price /\ 0 < amt
  | _ => True
  end.

Lemma check_pos_some x p : check_pos x = Some p -> 0 < p.
Proof.
  unfold check_pos. destruct x as [z|]; [|discriminate]. destruct (0 <? z) eqn:E; [|discriminate].
  intros H. injection H as <-. apply Z.ltb_lt. exact E.
Qed.
Lemma check_coin_some c d a : check_coin c = Some (d, a) -> 0 < a.
Proof.
  unfold check_coin. destruct (mc_denom c); [|discriminate]. destruct (mc_amt c) as [z|]; [|discriminate].
  destruct (0 <? z) eqn:E; [|discriminate]. intros H. injection H as _ <-.
  apply Z.ltb_lt. exact E.
Qed.
Lemma valid_scheds_some vs end_ l : valid_scheds vs end_ = Some l -> scheds_chk l end_.
Proof.
  unfold valid_scheds, scheds_chk. destruct vs as [|v vs].
  - intros H. injection H as <-. left. reflexivity.
  - intros H. right. eapply DecFacts.check_scheds_ok. exact H.
Qed.

Lemma denoms_differ sd pd (x : bool) : negb (N.eqb sd pd) && x = true -> sd <> pd.
Proof. intros H. apply andb_true_iff in H. destruct H as [H _]. apply negb_true_iff, N.eqb_neq in H. exact H. Qed.

(* check_basic tests exactly what cmsg_wf records: positive fields (check_pos, check_coin), the schedules
   (valid_scheds), and for the two creating messages that the denominations differ *)
Lemma check_basic_wf m c : check_basic m = Some c -> cmsg_wf c.
Proof.
  destruct m as [[up u|] price sell pay vs start end_|[up u|] price minp sell pay vs maxr rate start end_
                |[up u|] a|[up u|] a bt price coin|[up u|] a b price coin|a ea [up u|] max|auth cfee bfee period];
    cbn [check_basic]; intros H; try discriminate H.
  - destruct (check_pos price) as [p|] eqn:Ep; [|discriminate H].
    destruct (check_coin sell) as [[sd sa]|] eqn:Es; [|discriminate H].
    destruct pay as [pd|]; [|discriminate H].
    destruct (negb (N.eqb sd pd) && (start <? end_)) eqn:Ed; [|discriminate H].
    destruct (valid_scheds vs end_) as [l|] eqn:Ev; [|discriminate H].
    injection H as <-. split; [exact (check_pos_some _ _ Ep)|]. split; [exact (check_coin_some _ _ _ Es)|].
    split; [exact (denoms_differ _ _ _ Ed)|exact (valid_scheds_some _ _ _ Ev)].
  - destruct (check_pos price) as [p|] eqn:Ep; [|discriminate H].
    destruct (check_pos minp) as [mp|] eqn:Em; [|discriminate H].
    destruct (check_coin sell) as [[sd sa]|] eqn:Es; [|discriminate H].
    destruct pay as [pd|]; [|discriminate H].
    destruct (check_pos rate) as [r|] eqn:Er; [|discriminate H].
    destruct (negb (N.eqb sd pd) && (start <? end_)) eqn:Ed; [|discriminate H].
    destruct (valid_scheds vs end_) as [l|] eqn:Ev; [|discriminate H].
    injection H as <-. split; [exact (check_pos_some _ _ Ep)|]. split; [exact (check_pos_some _ _ Em)|].
    split; [exact (check_coin_some _ _ _ Es)|]. split; [exact (denoms_differ _ _ _ Ed)|].
    split; [exact (check_pos_some _ _ Er)|exact (valid_scheds_some _ _ _ Ev)].
  - injection H as <-. exact I.
  - destruct (check_pos price) as [p|] eqn:Ep; [|discriminate H].
    destruct (check_coin coin) as [[d amt]|] eqn:Ec; [|discriminate H].
    destruct (decode_btype bt) as [t|]; [|discriminate H].
    injection H as <-. split; [exact (check_pos_some _ _ Ep)|exact (check_coin_some _ _ _ Ec)].
  - destruct (check_pos price) as [p|] eqn:Ep; [|discriminate H].
    destruct (check_coin coin) as [[d amt]|] eqn:Ec; [|discriminate H].
    injection H as <-. split; [exact (check_pos_some _ _ Ep)|exact (check_coin_some _ _ _ Ec)].
  - injection H as <-. exact I.
  - injection H as <-. exact I.
Qed.

Lemma new_auction_wf id ty u up price sd samt pd vs start end_ st rem minp maxr rate :
  0 < price -> 0 < samt -> sd <> pd -> scheds_chk vs end_ -> (length vs <= MaxNumVestingSchedules)%nat ->
  (maxr <= MaxExtendedRound)%N ->
  (ty = Batch -> 0 < minp /\ 0 < rate /\ rem = 0) ->
  (ty = FixedPrice -> minp = 0 /\ rate = 0 /\ maxr = 0%N /\ rem = samt) ->
  auction_wf (new_auction id ty u up price sd samt pd vs start end_ st rem minp maxr rate).
Proof.
  intros H1 H2 H3 H4 H5 H6 H7 H8. split; cbn [new_auction a_start_price a_sell_amt a_sell_denom a_pay_denom a_ends
    a_max_round a_scheds a_type a_min_price a_rate a_remaining a_matched_price].
  - exact H1.
  - exact H2.
  - exact H3.
  - cbn [length]. lia.
  - exact H6.
  - unfold scheds_wf, first_end. cbn [new_auction a_scheds a_ends hd]. exact H4.
  - exact H5.
  - intros T. destruct (H7 T) as (K1 & K2 & K3). repeat split; try assumption. lia.
  - intros T. destruct (H8 T) as (K1 & K2 & K3 & K4). repeat split; try assumption; lia.
Qed.

Lemma check_coins_ok l : forall low r, check_coins l low = Some r -> coins_ok r low = true.
Proof.
  induction l as [|c l IH]; cbn [check_coins]; intros low r H.
  - injection H as <-. reflexivity.
  - destruct (check_coin c) as [[d a]|] eqn:E; [|discriminate].
    destruct (match low with Some lo => N.ltb lo d | None => true end) eqn:E2; [|discriminate].
    destruct (check_coins l (Some d)) as [r'|] eqn:E3; [|discriminate]. injection H as <-.
    cbn [coins_ok]. rewrite E2, (IH _ _ E3). apply check_coin_some, Z.ltb_lt in E.
    rewrite E. reflexivity.
Qed.

(* ValidateBasic on MsgPlaceBid, read backwards: the type of the call is the one the message names *)
Lemma check_basic_place {who id bt0 price0 coin u id' bt price d amt} :
  check_basic (MPlaceBid who id bt0 price0 coin) = Some (CPlaceBid u id' bt price d amt) -> decode_btype bt0 = Some bt.
Proof.
  cbn [check_basic]. destruct who as [up v|]; [|discriminate].
  destruct (check_pos price0); [|discriminate]. destruct (check_coin coin) as [[d0 a0]|]; [|discriminate].
  destruct (decode_btype bt0); [|discriminate]. intros H. injection H as _ _ <- _ _ _. reflexivity.
Qed.

(* The validations of a bid. *)
Definition fixed_valid (s : state) (a : auction) (b : bid) : Prop :=
  a_type a = FixedPrice /\ (b_denom b = a_pay_denom a \/ b_denom b = a_sell_denom a) /\
  b_price b = a_start_price a /\ sell_amount (a_pay_denom a) b <= a_remaining a /\
  exists al, find_allowed s (a_id a) (b_bidder b) = Some al /\
    sumZ (map (sell_amount (a_pay_denom a)) (filter (fun x => N.eqb (b_bidder x) (b_bidder b)) (bids_of s (a_id a))))
    + sell_amount (a_pay_denom a) b <= al_max al.

Definition batch_valid (s : state) (a : auction) (b : bid) (want : N) : Prop :=
  a_type a = Batch /\ b_denom b = want /\
  exists al, find_allowed s (a_id a) (b_bidder b) = Some al /\ sell_amount (a_pay_denom a) b <= al_max al.

Lemma yields_validate_fixed s a b : yields (validate_fixed_bid s a b) (fixed_valid s a b) tt.
Proof.
  unfold validate_fixed_bid, fixed_valid. cbv zeta.
  assert (D : negb (N.eqb (b_denom b) (a_pay_denom a)) && negb (N.eqb (b_denom b) (a_sell_denom a)) = false
              <-> b_denom b = a_pay_denom a \/ b_denom b = a_sell_denom a).
  { rewrite andb_false_iff, !negb_false_iff, !N.eqb_eq. reflexivity. }
  destruct (find_allowed s (a_id a) (b_bidder b)) as [al|].
  - eapply yields_conv; [apply yields_ifn, yields_if, yields_ifn, yields_if, yields_if, yields_ok| |reflexivity].
    rewrite atype_eqb_eq, Z.eqb_eq, !Z.ltb_ge, D. split.
    + intros (T & Dn & P & R & M & _). repeat (split; [assumption|]). exists al. split; [reflexivity|exact M].
    + intros (T & Dn & P & R & al' & E & M). injection E as <-. tauto.
  - eapply yields_conv; [apply yields_ifn, yields_if, yields_ifn, yields_if, yields_err| |reflexivity].
    split; [tauto|]. intros (_ & _ & _ & _ & al & E & _). discriminate E.
Qed.

Lemma yields_validate_batch s a b want : yields (validate_batch_bid s a b want) (batch_valid s a b want) tt.
Proof.
  unfold validate_batch_bid, batch_valid. destruct (find_allowed s (a_id a) (b_bidder b)) as [al|].
  - eapply yields_conv; [apply yields_ifn, yields_ifn, yields_if, yields_ok| |reflexivity].
    rewrite atype_eqb_eq, N.eqb_eq, Z.ltb_ge. split.
    + intros (T & Dn & M & _). repeat (split; [assumption|]). exists al. split; [reflexivity|exact M].
    + intros (T & Dn & al' & E & M). injection E as <-. tauto.
  - eapply yields_conv; [apply yields_ifn, yields_ifn, yields_err| |reflexivity].
    split; [tauto|]. intros (_ & _ & al & E & _). discriminate E.
Qed.

(* MsgCreateFixedPriceAuction, MsgCreateBatchAuction. *)
(* the fee to the community pool, then the coins on sale into the selling escrow of the new auction *)
Definition create_xf (s : state) (u sd : N) (samt : Z) : list xfer :=
  coin_xfers (User u) Pool (p_cfee (st_params s)) ++ send_xf (User u) (Escrow Selling (st_aseq s)) sd samt.

(* the counter moves, xs is paid, the record a is appended between its two hooks *)
Definition create_post (s : state) (xs : list xfer) (k1 k2 : N) (args : list Z) (a : auction) : state :=
  hooked (with_auctions (hooked (banked (with_aseq s (st_aseq s + 1)%N) xs) k1 args) (st_auctions s ++ [a]))
         k2 (zN (st_aseq s) :: args).

Definition fixed_args (u : N) (up : bool) (price : Z) (sd : N) (samt : Z) (pd : N) (vs : list sched) (start end_ : Z)
  : list Z := enc_addr_str (AGood up u) ++ [price; zN sd; samt; zN pd] ++ enc_scheds vs ++ [start; end_].
Definition fixed_new (s : state) (u : N) (up : bool) (price : Z) (sd : N) (samt : Z) (pd : N) (vs : list sched)
  (start end_ : Z) : auction :=
  new_auction (st_aseq s) FixedPrice u up price sd samt pd vs start end_
    (if start <=? st_now s then Started else StandBy) samt 0 0 0.
Definition batch_args (u : N) (up : bool) (price minp : Z) (sd : N) (samt : Z) (pd : N) (vs : list sched) (maxr : N)
  (rate start end_ : Z) : list Z :=
  enc_addr_str (AGood up u) ++ [price; minp; zN sd; samt; zN pd] ++ enc_scheds vs ++ [zN maxr; rate; start; end_].
Definition batch_new (s : state) (u : N) (up : bool) (price minp : Z) (sd : N) (samt : Z) (pd : N) (vs : list sched)
  (maxr : N) (rate start end_ : Z) : auction :=
  new_auction (st_aseq s) Batch u up price sd samt pd vs start end_
    (if start <=? st_now s then Started else StandBy) 0 minp maxr rate.

(* the guards of both creations (Spec.create_precond is their flat form): a fixed price auction has no extended rounds *)
Record create_ok (s : state) (u sd : N) (samt : Z) (nvs : nat) (maxr : N) (end_ : Z) (k1 k2 : N) : Prop := {
  co_end : st_now s <= end_;
  co_scheds : (nvs <= MaxNumVestingSchedules)%nat;
  co_rounds : (maxr <= MaxExtendedRound)%N;
  co_pays : pays (st_bal s) (create_xf s u sd samt);
  co_before : no_veto s k1 = true;
  co_after : no_veto s k2 = true }.
Arguments co_end {s u sd samt nvs maxr end_ k1 k2}. Arguments co_scheds {s u sd samt nvs maxr end_ k1 k2}.
Arguments co_rounds {s u sd samt nvs maxr end_ k1 k2}. Arguments co_pays {s u sd samt nvs maxr end_ k1 k2}.
Arguments co_before {s u sd samt nvs maxr end_ k1 k2}. Arguments co_after {s u sd samt nvs maxr end_ k1 k2}.

Lemma create_fixed_iff s u up price sd samt pd vs start end_ s' :
  create_fixed s u up price sd samt pd vs start end_ = Ok s' <->
  create_ok s u sd samt (length vs) 0 end_ H_BeforeFixedCreated H_AfterFixedCreated
  /\ s' = create_post s (create_xf s u sd samt) H_BeforeFixedCreated H_AfterFixedCreated
            (fixed_args u up price sd samt pd vs start end_) (fixed_new s u up price sd samt pd vs start end_).
Proof.
  revert s'. refine (_ : yields _ _ _).
  unfold create_fixed. cbv zeta. eapply yields_conv.
  - apply yields_if, yields_if. eapply yields_bind; [apply yields_fund_pool|].
    eapply yields_bind; [apply yields_send|]. eapply yields_bind; [apply yields_hook|].
    eapply yields_bind; [apply yields_hook|apply yields_ok].
  - rewrite Z.ltb_ge, Nat.ltb_ge. split.
    + intros H. constructor; try tauto; [lia|unfold create_xf; rewrite pays_app; tauto].
    + intros [H1 H2 _ H4 H5 H6]. unfold create_xf in H4. rewrite pays_app in H4. tauto.
  - intros _. rewrite banked_app. reflexivity.
Qed.

Lemma create_batch_iff s u up price minp sd samt pd vs maxr rate start end_ s' :
  create_batch s u up price minp sd samt pd vs maxr rate start end_ = Ok s' <->
  create_ok s u sd samt (length vs) maxr end_ H_BeforeBatchCreated H_AfterBatchCreated
  /\ s' = create_post s (create_xf s u sd samt) H_BeforeBatchCreated H_AfterBatchCreated
            (batch_args u up price minp sd samt pd vs maxr rate start end_)
            (batch_new s u up price minp sd samt pd vs maxr rate start end_).
Proof.
  revert s'. refine (_ : yields _ _ _).
  unfold create_batch. cbv zeta. eapply yields_conv.
  - apply yields_if, yields_if, yields_if. eapply yields_bind; [apply yields_fund_pool|].
    eapply yields_bind; [apply yields_send|]. eapply yields_bind; [apply yields_hook|].
    eapply yields_bind; [apply yields_hook|apply yields_ok].
  - rewrite Z.ltb_ge, Nat.ltb_ge, N.ltb_ge. split.
    + intros H. constructor; try tauto. unfold create_xf. rewrite pays_app. tauto.
    + intros [H1 H2 H3 H4 H5 H6]. unfold create_xf in H4. rewrite pays_app in H4. tauto.
  - intros _. rewrite banked_app. reflexivity.
Qed.

(* MsgCancelAuction. *)
(* what CancelAuction stores: a fixed price auction also gives up its remaining amount *)
Definition cancel_of (a : auction) : auction :=
  set_status (match a_type a with FixedPrice => set_remaining a 0 | Batch => a end) Cancelled.

Lemma a_id_cancel_of a : a_id (cancel_of a) = a_id a.
Proof. unfold cancel_of. destruct (a_type a); reflexivity. Qed.

(* whatever the selling escrow holds goes back to the auctioneer *)
Definition cancel_xf (s : state) (id : N) (a : auction) : list xfer :=
  send_xf (Escrow Selling id) (User (a_auctioneer a)) (a_sell_denom a) (st_bal s (Escrow Selling id) (a_sell_denom a)).
Definition cancel_post (s : state) (u : N) (up : bool) (id : N) (a : auction) : state :=
  put_auction (hooked (banked s (cancel_xf s id a)) H_BeforeCanceled (zN id :: enc_addr_str (AGood up u))) (cancel_of a).

Record cancel_ok (s : state) (u id : N) (a : auction) : Prop := {
  cn_owner : a_auctioneer a = u;
  cn_standby : a_status a = StandBy;
  cn_pays : pays (st_bal s) (cancel_xf s id a);
  cn_hook : no_veto s H_BeforeCanceled = true }.
Arguments cn_owner {s u id a}. Arguments cn_standby {s u id a}. Arguments cn_pays {s u id a}. Arguments cn_hook {s u id a}.

Lemma cancel_iff s u up id s' :
  cancel s u up id = Ok s' <->
  exists a, find_auction s id = Some a /\ cancel_ok s u id a /\ s' = cancel_post s u up id a.
Proof.
  unfold cancel. destruct (find_auction s id) as [a|].
  2:{ split; [discriminate|intros (a & E & _); discriminate E]. }
  match goal with |- ?r = _ <-> _ =>
    assert (Y : yields r (cancel_ok s u id a) (cancel_post s u up id a)) end.
  { eapply yields_conv.
    - apply yields_ifn, yields_ifn. eapply yields_bind; [apply yields_send|].
      eapply yields_bind; [apply yields_hook|apply yields_ok].
    - rewrite N.eqb_eq, status_eqb_eq. split; [intros H; constructor; tauto|intros []; tauto].
    - reflexivity. }
  rewrite (Y s'). split.
  - intros [G E]. exists a. auto.
  - intros (a0 & E & G). injection E as <-. exact G.
Qed.

(* MsgPlaceBid. *)
Definition new_bid (s : state) (u id : N) (bt : btype) (price : Z) (d : N) (amt : Z) : bid :=
  {| b_auction := id; b_id := (st_bseq s id + 1)%N; b_bidder := u; b_type := bt; b_price := price;
     b_denom := d; b_amt := amt; b_matched := false |}.

Definition bid_valid (s : state) (a : auction) (b : bid) : Prop :=
  match b_type b with
  | BFixed => fixed_valid s a b
  | BWorth => batch_valid s a b (a_pay_denom a)
  | BMany => batch_valid s a b (a_sell_denom a)
  end.

(* the fee to the community pool, then what the bid reserves into the paying escrow: a worth bid its own coin *)
Definition bid_xf (s : state) (a : auction) (b : bid) : list xfer :=
  coin_xfers (User (b_bidder b)) Pool (p_bfee (st_params s)) ++
  match b_type b with
  | BWorth => send_xf (User (b_bidder b)) (Escrow Paying (b_auction b)) (b_denom b) (b_amt b)
  | _ => send_xf (User (b_bidder b)) (Escrow Paying (b_auction b)) (a_pay_denom a) (pay_amount (a_pay_denom a) b)
  end.

(* the bid as it is stored: a fixed price bid is matched at once, unless it buys nothing *)
Definition stored_bid (a : auction) (b : bid) : bid :=
  set_b_matched b (match b_type b with BFixed => 0 <? sell_amount (a_pay_denom a) b | _ => b_matched b end).

(* what the bid takes from the amount that remains, and the record as it is afterwards *)
Definition bid_takes (a : auction) (b : bid) : Z :=
  match b_type b with BFixed => sell_amount (a_pay_denom a) b | _ => 0 end.
Definition place_record (a : auction) (b : bid) : auction := set_remaining a (a_remaining a - bid_takes a b).

(* The type of the bid decides in one place only, whether the record of the auction is written: every other field of
   the state is read by computation, the auctions through place_post_find and place_post_ids. *)
Definition place_post (s : state) (a : auction) (b : bid) : state :=
  let s2 := banked (with_bseq s (upd (st_bseq s) (b_auction b) (b_id b))) (bid_xf s a b) in
  with_bids (hooked (with_auctions s2 (match b_type b with
                                       | BFixed => st_auctions (put_auction s (place_record a b))
                                       | _ => st_auctions s
                                       end)) H_BeforeBidPlaced
               [zN (b_auction b); zN (b_id b); zN (b_bidder b); enc_btype (b_type b); b_price b; zN (b_denom b); b_amt b])
            (st_bids s ++ [stored_bid a b]).

(* the guards of PlaceBid on the auction a, for the bid b it is about to store *)
Record place_ok (s : state) (a : auction) (b : bid) : Prop := {
  pl_started : a_status a = Started;
  pl_price : atype_eqb (a_type a) Batch && (b_price b <? a_min_price a) = false;
  pl_entry : find_allowed s (b_auction b) (b_bidder b) <> None;
  pl_valid : bid_valid s a b;
  pl_pays : pays (st_bal s) (bid_xf s a b);
  pl_hook : no_veto s H_BeforeBidPlaced = true }.
Arguments pl_started {s a b}. Arguments pl_price {s a b}. Arguments pl_entry {s a b}. Arguments pl_valid {s a b}.
Arguments pl_pays {s a b}. Arguments pl_hook {s a b}.

Lemma place_bid_iff s u id bt price d amt s' :
  place_bid s u id bt price d amt = Ok s' <->
  exists a, find_auction s id = Some a /\
    place_ok s a (new_bid s u id bt price d amt) /\ s' = place_post s a (new_bid s u id bt price d amt).
Proof.
  unfold place_bid. destruct (find_auction s id) as [a|].
  2:{ split; [discriminate|intros (a & E & _); discriminate E]. }
  cbv zeta. set (b := new_bid s u id bt price d amt).
  match goal with |- ?r = _ <-> _ =>
    assert (Y : yields r (place_ok s a b) (place_post s a b)) end.
  { unfold place_post, place_record, bid_takes, stored_bid, bid_valid, bid_xf. subst b.
    destruct bt; cbn [b_type new_bid b_bidder b_auction b_denom b_amt b_id b_price].
    all: eapply yields_conv;
      [ apply yields_ifn, yields_if, yields_some;
        eapply yields_bind; [apply yields_fund_pool|]; eapply yields_bind;
        [ eapply yields_bind; [first [apply yields_validate_fixed|apply yields_validate_batch]|];
          eapply yields_bind; [apply yields_send|apply yields_ok]
        | cbv beta iota; eapply yields_bind; [apply yields_hook|apply yields_ok] ]
      | rewrite status_eqb_eq; split;
        [ intros H; constructor; try tauto; unfold bid_xf; cbn [b_type new_bid]; rewrite pays_app; tauto
        | intros [H1 H2 H3 H4 H5 H6]; unfold bid_xf in H5; cbn [b_type new_bid] in H5; rewrite pays_app in H5; tauto ]
      | intros _; rewrite <- banked_app; reflexivity ]. }
  rewrite (Y s'). split.
  - intros [G E]. exists a. auto.
  - intros (a0 & E & G). injection E as <-. exact G.
Qed.

(* a worth bid names the paying coin and reserves its own amount: whatever the type, what the bid is worth in the paying
   coin goes into the paying escrow *)
Lemma bid_xf_pay s a b :
  bid_valid s a b ->
  bid_xf s a b = coin_xfers (User (b_bidder b)) Pool (p_bfee (st_params s))
                 ++ send_xf (User (b_bidder b)) (Escrow Paying (b_auction b)) (a_pay_denom a) (pay_amount (a_pay_denom a) b).
Proof.
  unfold bid_valid, bid_xf. destruct (b_type b); try reflexivity.
  intros (_ & Hd & _). rewrite (DecFacts.pay_amount_paying _ b Hd), Hd. reflexivity.
Qed.


(* MsgModifyBid. *)
Lemma yields_send_if (c : bool) s f t d a :
  yields (if c then send s f t d a else Ok s) (pays (st_bal s) (if c then send_xf f t d a else []))
         (banked s (if c then send_xf f t d a else [])).
Proof. destruct c; [apply yields_send|]. cbn [pays]. rewrite banked_nil. apply yields_ok. Qed.

(* coin and amount by which the reservation of the bid grows, as ModifyBid computes them *)
Definition modify_due (a : auction) (b : bid) (price : Z) (d : N) (amt : Z) : N * Z :=
  match b_type b with
  | BWorth => (d, amt - b_amt b)
  | BMany => (a_pay_denom a, pay_of_qty amt price - pay_of_qty (b_amt b) (b_price b))
  | BFixed => (d, 0)
  end.
Definition modify_xf (u id : N) (a : auction) (b : bid) (price : Z) (d : N) (amt : Z) : list xfer :=
  let '(dd, diff) := modify_due a b price d amt in
  if 0 <? diff then send_xf (User u) (Escrow Paying id) dd diff else [].
Definition modify_post (s : state) (u id bid_id : N) (a : auction) (b : bid) (price : Z) (d : N) (amt : Z) : state :=
  put_bid (hooked (banked s (modify_xf u id a b price d amt)) H_BeforeBidModified
             [zN id; zN bid_id; zN (b_bidder b); enc_btype (b_type b); price; zN d; amt])
          (set_b_terms b price amt).

(* the guards of ModifyBid on the bid b of the auction a *)
Record modify_ok (s : state) (u id : N) (a : auction) (b : bid) (price : Z) (d : N) (amt : Z) : Prop := {
  md_started : a_status a = Started;
  md_batch : a_type a = Batch;
  md_owner : b_bidder b = u;
  md_price : a_min_price a <= price;
  md_denom : b_denom b = d;
  md_raised : b_price b <= price /\ b_amt b <= amt;
  md_changed : (price =? b_price b) && (amt =? b_amt b) = false;
  md_pays : pays (st_bal s) (modify_xf u id a b price d amt);
  md_hook : no_veto s H_BeforeBidModified = true }.
Arguments md_started {s u id a b price d amt}. Arguments md_batch {s u id a b price d amt}.
Arguments md_owner {s u id a b price d amt}. Arguments md_price {s u id a b price d amt}.
Arguments md_denom {s u id a b price d amt}. Arguments md_raised {s u id a b price d amt}.
Arguments md_changed {s u id a b price d amt}. Arguments md_pays {s u id a b price d amt}.
Arguments md_hook {s u id a b price d amt}.

Lemma modify_bid_iff s u id bid_id price d amt s' :
  modify_bid s u id bid_id price d amt = Ok s' <->
  exists a b, find_auction s id = Some a /\ find_bid s id bid_id = Some b /\
    modify_ok s u id a b price d amt /\ s' = modify_post s u id bid_id a b price d amt.
Proof.
  unfold modify_bid. destruct (find_auction s id) as [a|].
  2:{ split; [discriminate|intros (a & b & E & _); discriminate E]. }
  destruct (find_bid s id bid_id) as [b|].
  2:{ split; [|intros (a0 & b & _ & E & _); discriminate E].
      destruct (negb _); [discriminate|]. destruct (negb _); discriminate. }
  match goal with |- ?r = _ <-> _ =>
    assert (Y : yields r (modify_ok s u id a b price d amt) (modify_post s u id bid_id a b price d amt)) end.
  { unfold modify_post, modify_xf, modify_due. destruct (b_type b) eqn:Ebt.
    all: eapply yields_conv;
      [ apply yields_ifn, yields_ifn, yields_ifn, yields_if, yields_ifn, yields_if, yields_if;
        eapply yields_bind; [apply yields_send_if|]; eapply yields_bind; [apply yields_hook|apply yields_ok]
      | rewrite status_eqb_eq, atype_eqb_eq, !N.eqb_eq, orb_false_iff, !Z.ltb_ge;
        split;
        [ intros H; constructor; try tauto; unfold modify_xf, modify_due; rewrite Ebt; tauto
        | intros [H1 H2 H3 H4 H5 H6 H7 H8 H9]; unfold modify_xf, modify_due in H8; rewrite Ebt in H8; tauto ]
      | reflexivity ]. }
  rewrite (Y s'). split.
  - intros [G E]. exists a, b. auto.
  - intros (a0 & b0 & E & E' & G). injection E as <-. injection E' as <-. exact G.
Qed.

Lemma send_xf_max f t d x : (if 0 <? x then send_xf f t d x else []) = send_xf f t d (Z.max 0 x).
Proof.
  destruct (0 <? x) eqn:E.
  - apply Z.ltb_lt in E. rewrite Z.max_r by lia. reflexivity.
  - apply Z.ltb_ge in E. rewrite Z.max_l by lia. reflexivity.
Qed.

(* what a modification charges is the increase of what the bid is worth in the paying coin: for a worth bid the amount
   itself is reserved, for a many bid the ceiling of quantity times price *)
Lemma modify_due_eq a b price amt :
  a_sell_denom a <> a_pay_denom a ->
  (b_type b = BWorth /\ b_denom b = a_pay_denom a) \/ (b_type b = BMany /\ b_denom b = a_sell_denom a) ->
  modify_due a b price (b_denom b) amt
  = (a_pay_denom a, pay_amount (a_pay_denom a) (set_b_terms b price amt) - pay_amount (a_pay_denom a) b).
Proof.
  intros Hden [[Ht Hd]|[Ht Hd]]; unfold modify_due; rewrite Ht.
  - rewrite !DecFacts.pay_amount_paying by exact Hd. rewrite Hd. reflexivity.
  - rewrite !DecFacts.pay_amount_selling by (cbn [set_b_terms b_denom]; congruence). reflexivity.
Qed.

Lemma modify_xf_pay u id a b price amt :
  a_sell_denom a <> a_pay_denom a ->
  (b_type b = BWorth /\ b_denom b = a_pay_denom a) \/ (b_type b = BMany /\ b_denom b = a_sell_denom a) ->
  modify_xf u id a b price (b_denom b) amt
  = send_xf (User u) (Escrow Paying id) (a_pay_denom a)
      (Z.max 0 (pay_amount (a_pay_denom a) (set_b_terms b price amt) - pay_amount (a_pay_denom a) b)).
Proof. intros Hden Hk. unfold modify_xf. rewrite (modify_due_eq a b price amt Hden Hk). apply send_xf_max. Qed.

(* AddAllowedBidders, UpdateAllowedBidder. *)
Definition entry_ok (a : auction) (e : N * addr_str * option Z) : Prop :=
  match e with (_, AGood _ _, Some m) => 0 < m <= a_sell_amt a | _ => False end.
Definition put_entry (id : N) (s : state) (e : N * addr_str * option Z) : state :=
  match e with (_, AGood _ u, Some m) => put_allowed s id u m | _ => s end.

(* the entries are stored one after the other *)
Lemma yields_add_entries a l : forall s,
  yields (add_entries s a l) (Forall (entry_ok a) l) (fold_left (put_entry (a_id a)) l s).
Proof.
  assert (Bad : forall s c e l, ~ entry_ok a e -> yields (@fail state s c) (Forall (entry_ok a) (e :: l))
                                                   (fold_left (put_entry (a_id a)) (e :: l) s)).
  { intros s c e r Hn. eapply yields_conv; [apply (yields_err c (st_trace s) (fold_left (put_entry (a_id a)) (e :: r) s))| |reflexivity].
    split; [intros []|intros H; apply Forall_cons_iff in H; tauto]. }
  induction l as [|[[ea who] max] r IH]; intros s; cbn [add_entries].
  - eapply yields_conv; [apply yields_ok| |reflexivity]. split; [constructor|auto].
  - destruct who as [up u|]; [|apply Bad; intros []]. destruct max as [m|]; [|apply Bad; intros []].
    eapply yields_conv; [apply yields_ifn, yields_if, IH| |reflexivity].
    rewrite Z.ltb_lt, Z.ltb_ge, Forall_cons_iff. cbn [entry_ok]. intuition lia.
Qed.

Lemma api_add_iff s id l s' :
  api_add s id l = Ok s' <->
  exists a, find_auction s id = Some a /\
    (l <> [] /\ no_veto s H_BeforeAllowedAdded = true /\ Forall (entry_ok a) l)
    /\ s' = fold_left (put_entry (a_id a)) l (hooked s H_BeforeAllowedAdded (enc_entries l)).
Proof.
  unfold api_add. destruct l as [|e l].
  { split; [discriminate|intros (a & _ & (E & _) & _); destruct (E eq_refl)]. }
  destruct (find_auction s id) as [a|].
  2:{ split; [discriminate|intros (a & E & _); discriminate E]. }
  match goal with |- ?r = _ <-> _ =>
    assert (Y : yields r (e :: l <> [] /\ no_veto s H_BeforeAllowedAdded = true /\ Forall (entry_ok a) (e :: l))
                  (fold_left (put_entry (a_id a)) (e :: l) (hooked s H_BeforeAllowedAdded (enc_entries (e :: l))))) end.
  { eapply yields_conv; [eapply yields_bind; [apply yields_hook|apply yields_add_entries]| |reflexivity].
    split; [intros [V Fo]; repeat split; [discriminate|exact V|exact Fo]|tauto]. }
  rewrite (Y s'). split.
  - intros [G E]. exists a. auto.
  - intros (a0 & E & G). injection E as <-. exact G.
Qed.

(* the guards of UpdateAllowedBidder: the new maximum m is there and positive *)
Record update_ok (s : state) (id u : N) (max : option Z) (m : Z) : Prop := {
  up_auction : find_auction s id <> None;
  up_entry : find_allowed s id u <> None;
  up_max : max = Some m;
  up_pos : 0 < m;
  up_hook : no_veto s H_BeforeAllowedUpdated = true }.
Arguments up_auction {s id u max m}. Arguments up_entry {s id u max m}. Arguments up_max {s id u max m}.
Arguments up_pos {s id u max m}. Arguments up_hook {s id u max m}.

Lemma api_update_iff s id u max s' :
  api_update s id u max = Ok s' <->
  exists m, update_ok s id u max m /\ s' = put_allowed (hooked s H_BeforeAllowedUpdated [zN id; zN u; m]) id u m.
Proof.
  unfold api_update. destruct max as [m|]; cbn [check_pos].
  2:{ split; [|intros (m & G & _); discriminate (up_max G)].
      destruct (find_auction s id); [|discriminate]. destruct (find_allowed s id u); discriminate. }
  destruct (Z.ltb_spec 0 m) as [Hm|Hm].
  - match goal with |- ?r = _ <-> _ =>
      assert (Y : yields r (find_auction s id <> None /\ find_allowed s id u <> None /\ no_veto s H_BeforeAllowedUpdated = true)
                    (put_allowed (hooked s H_BeforeAllowedUpdated [zN id; zN u; m]) id u m)) end.
    { eapply yields_conv; [apply yields_some, yields_some; eapply yields_bind; [apply yields_hook|apply yields_ok]| |reflexivity].
      tauto. }
    rewrite (Y s'). split.
    + intros [(F & A & V) E]. exists m. split; [constructor; auto|exact E].
    + intros (m0 & G & E'). pose proof (up_max G) as E. injection E as <-. split; [|exact E'].
      split; [exact (up_auction G)|]. split; [exact (up_entry G)|exact (up_hook G)].
  - split; [|intros (m0 & G & _); pose proof (up_max G) as E; pose proof (up_pos G); injection E as <-; lia].
    destruct (find_auction s id); [|discriminate]. destruct (find_allowed s id u); discriminate.
Qed.

(* MsgUpdateParams: no monad to walk, a case split on the three tests. *)
Lemma update_params_iff s auth cfee bfee period s' :
  update_params s auth cfee bfee period = Ok s' <->
  exists c b, (auth = AuthGov /\ check_coins cfee None = Some c /\ check_coins bfee None = Some b)
              /\ s' = with_params s {| p_cfee := c; p_bfee := b; p_period := period |}.
Proof.
  unfold update_params. split.
  - intros H. destruct auth as [|[up u|]]; try discriminate H.
    destruct (check_coins cfee None) as [c|]; [|discriminate H].
    destruct (check_coins bfee None) as [b|]; [|discriminate H].
    injection H as <-. exists c, b. auto.
  - intros (c & b & (-> & -> & ->) & ->). reflexivity.
Qed.

(* All operations but blocks and GENESIS: tx_shape. *)
(* entries stored for the auction id: the allow-list changes, for id only, and no entry goes *)
Lemma entries_put id l : forall s,
  exists al, fold_left (put_entry id) l s = with_allowed s al /\ kept al_auction id (st_allowed s) al
             /\ apersist s (fold_left (put_entry id) l s).
Proof.
  induction l as [|[[ea who] max] l IH]; intros s; cbn [fold_left].
  - exists (st_allowed s). split; [symmetry; apply with_allowed_eta|]. split; [apply kept_refl|apply apersist_refl].
  - destruct who as [up u|]; [|apply IH]. destruct max as [m|]; [|apply IH]. cbn [put_entry].
    pose proof (put_allowed_persist s id u m) as P0. rewrite put_allowed_eq in *.
    destruct (IH (with_allowed s (put_allowed_list (st_allowed s) id u m))) as (al & -> & K & P).
    exists al. split; [reflexivity|]. split; [|exact (apersist_trans _ _ _ P0 P)].
    exact (kept_trans _ _ _ _ _ (kept_put_allowed_list _ _ _ u m (kept_refl _ _ _)) K).
Qed.

(* the transfers of each handler stay among users, the community pool and the escrows of its auction *)
Lemma create_xf_own s u sd samt : Forall (own_ends (st_aseq s)) (create_xf s u sd samt).
Proof. apply Forall_app. split; [apply Forall_coin_xfers; intros|apply Forall_send_xf]; split; exact I || reflexivity. Qed.
Lemma cancel_xf_own s id a : Forall (own_ends id) (cancel_xf s id a).
Proof. apply Forall_send_xf. split; exact I || reflexivity. Qed.
Lemma bid_xf_own s a b : Forall (own_ends (b_auction b)) (bid_xf s a b).
Proof.
  apply Forall_app. split; [apply Forall_coin_xfers; intros; split; exact I|].
  destruct (b_type b); apply Forall_send_xf; split; exact I || reflexivity.
Qed.
Lemma modify_xf_own u id a b price d amt : Forall (own_ends id) (modify_xf u id a b price d amt).
Proof.
  unfold modify_xf. destruct (modify_due a b price d amt) as [dd diff].
  destruct (0 <? diff); [apply Forall_send_xf; split; exact I || reflexivity|constructor].
Qed.

Definition is_allow_op (o : op) : bool :=
  match o with OTx (MAddAllowed _ _ _ _) | OApiAdd _ _ | OApiUpdate _ _ _ => true | _ => false end.

(* what tx_shape keeps of entry_ok: the entry is stored (put_entry does something) with a positive maximum.  The bound by
   the auction's selling amount is not kept, since UpdateAllowedBidder does not check it. *)
Definition entry_pos (e : N * addr_str * option Z) : Prop :=
  match e with (_, AGood _ _, Some m) => 0 < m | _ => False end.

(* Every constructor gives the state after the operation as the term the handler's characterisation has, with those
   of its guards that the users below read. *)
Inductive tx_shape (s : state) : op -> outcome -> state -> Prop :=
| SRej o c tr : tx_shape s o (Rejected c) (with_trace s tr)
| SSend from to d amt :
    pays (st_bal s) (send_xf (User from) to d amt) ->
    tx_shape s (OSend from to d amt) Accepted (banked s (send_xf (User from) to d amt))
| SListeners ls : tx_shape s (OSetListeners ls) Done (with_listeners s ls)
| SParams auth cfee bfee period p :
    coins_ok (p_cfee p) None = true -> coins_ok (p_bfee p) None = true ->
    tx_shape s (OTx (MUpdateParams auth cfee bfee period)) Accepted (with_params s p)
| SCreate m k1 k2 args a :
    is_create m = true -> a_id a = st_aseq s -> auction_wf a ->
    a_status a = (if a_start a <=? st_now s then Started else StandBy) ->
    (exists e, a_ends a = [e]) -> (a_max_round a <= MaxExtendedRound)%N ->
    (a_type a = FixedPrice -> a_max_round a = 0%N /\ a_remaining a = a_sell_amt a) ->
    pays (st_bal s) (create_xf s (a_auctioneer a) (a_sell_denom a) (a_sell_amt a)) ->
    tx_shape s (OTx m) Accepted (create_post s (create_xf s (a_auctioneer a) (a_sell_denom a) (a_sell_amt a)) k1 k2 args a)
| SCancel who u up id a :
    find_auction s id = Some a -> a_status a = StandBy -> pays (st_bal s) (cancel_xf s id a) ->
    who = AGood up u -> a_auctioneer a = u -> no_veto s H_BeforeCanceled = true ->
    tx_shape s (OTx (MCancel who id)) Accepted (cancel_post s u up id a)
| SPlace who u up id bt0 price0 coin bt price d amt a :
    find_auction s id = Some a -> a_status a = Started -> find_allowed s id u <> None ->
    0 < price /\ 0 < amt -> atype_eqb (a_type a) Batch && (price <? a_min_price a) = false ->
    bid_valid s a (new_bid s u id bt price d amt) -> pays (st_bal s) (bid_xf s a (new_bid s u id bt price d amt)) ->
    who = AGood up u -> check_basic (MPlaceBid who id bt0 price0 coin) = Some (CPlaceBid u id bt price d amt) ->
    no_veto s H_BeforeBidPlaced = true ->
    tx_shape s (OTx (MPlaceBid who id bt0 price0 coin)) Accepted (place_post s a (new_bid s u id bt price d amt))
| SModify who u up id bid price0 coin a b0 p d amt :
    find_auction s id = Some a -> a_status a = Started -> find_bid s id bid = Some b0 ->
    a_type a = Batch -> a_min_price a <= p -> 0 < p /\ 0 < amt -> b_denom b0 = d -> b_price b0 <= p /\ b_amt b0 <= amt ->
    pays (st_bal s) (modify_xf u id a b0 p d amt) ->
    who = AGood up u -> check_basic (MModifyBid who id bid price0 coin) = Some (CModifyBid u id bid p d amt) ->
    b_bidder b0 = u ->
    (p =? b_price b0) && (amt =? b_amt b0) = false -> no_veto s H_BeforeBidModified = true ->
    tx_shape s (OTx (MModifyBid who id bid price0 coin)) Accepted (modify_post s u id bid a b0 p d amt)
| SAllowed o id a k args l :
    target s o = Some id -> is_allow_op o = true -> find_auction s id = Some a -> Forall entry_pos l ->
    tx_shape s o Accepted (fold_left (put_entry id) l (hooked s k args)).

Lemma commit_accepted : forall s r, fst (commit s r) = Accepted -> r = Ok (snd (commit s r)).
Proof. intros s [s'|c tr] H; [reflexivity | discriminate H]. Qed.

(* an accepted message passed ValidateBasic, and its handler succeeded with the state of the step *)
Lemma accepted_handle s m :
  fst (step s (OTx m)) = Accepted -> exists c, check_basic m = Some c /\ handle s c = Ok (snd (step s (OTx m))).
Proof.
  cbn [step]. unfold deliver_tx. destruct (check_basic m) as [c|]; [|discriminate].
  intros H. exists c. split; [reflexivity|exact (commit_accepted _ _ H)].
Qed.

Lemma commit_shape s o r :
  (forall s', r = Ok s' -> tx_shape s o Accepted s') -> tx_shape s o (fst (commit s r)) (snd (commit s r)).
Proof.
  intros H. destruct r as [s'|c tr]; cbn [commit fst snd]; [apply H; reflexivity|apply SRej].
Qed.

Lemma entry_ok_pos a l : Forall (entry_ok a) l -> Forall entry_pos l.
Proof.
  apply Forall_impl. intros [[ea [up u|]] [m|]]; cbn [entry_ok entry_pos]; tauto || (intros H; lia).
Qed.

Lemma api_add_shape s o id l s' :
  target s o = Some id -> is_allow_op o = true -> api_add s id l = Ok s' -> tx_shape s o Accepted s'.
Proof.
  intros T A H. apply api_add_iff in H. destruct H as (a & F & (_ & _ & Fo) & ->).
  destruct (find_auction_some _ _ _ F) as [_ ->]. exact (SAllowed s o id a _ _ l T A F (entry_ok_pos a l Fo)).
Qed.

Lemma handle_shape s m c s' : check_basic m = Some c -> handle s c = Ok s' -> tx_shape s (OTx m) Accepted s'.
Proof.
  intros CB H. pose proof (check_basic_wf m c CB) as W. pose proof CB as CB0. apply check_basic_inv in CB.
  destruct m as [who ? ? ? ? ? ?|who ? ? ? ? ? ? ? ? ?|who ?|who ? ? ? ?|who ? ? ? ?| |]; decompose [ex and] CB; subst c; cbn [handle cmsg_wf] in H, W.
  - (* MCreateFixed *) destruct W as (W1 & W2 & W3 & W4). apply create_fixed_iff in H. destruct H as [G ->].
    match goal with |- tx_shape _ _ _ (create_post _ _ _ _ _ ?a) => apply (SCreate s _ _ _ _ a) end; try reflexivity;
      [|eexists; reflexivity|cbn [a_max_round fixed_new new_auction]; lia|split; reflexivity|exact (co_pays G)].
    pose proof (co_scheds G). apply new_auction_wf; try assumption; try lia; intros C; discriminate C.
  - (* MCreateBatch *) destruct W as (W1 & W2 & W3 & W4 & W5 & W6). apply create_batch_iff in H. destruct H as [G ->].
    match goal with |- tx_shape _ _ _ (create_post _ _ _ _ _ ?a) => apply (SCreate s _ _ _ _ a) end; try reflexivity;
      [|eexists; reflexivity|exact (co_rounds G)|discriminate|exact (co_pays G)].
    pose proof (co_scheds G). pose proof (co_rounds G).
    apply new_auction_wf; try assumption; [intros _; repeat split; assumption|intros C; discriminate C].
  - (* MCancel *) apply cancel_iff in H. destruct H as (au & F & G & ->).
    apply SCancel; [exact F|exact (cn_standby G)|exact (cn_pays G)|assumption|exact (cn_owner G)|exact (cn_hook G)].
  - (* MPlaceBid *) apply place_bid_iff in H. destruct H as (au & F & G & ->).
    eapply SPlace; [exact F|exact (pl_started G)|exact (pl_entry G)|exact W|exact (pl_price G)|exact (pl_valid G)
                   |exact (pl_pays G)|eassumption|exact CB0|exact (pl_hook G)].
  - (* MModifyBid *) apply modify_bid_iff in H. destruct H as (au & b0 & F & B & G & ->).
    eapply SModify; [exact F|exact (md_started G)|exact B|exact (md_batch G)|exact (md_price G)|exact W|exact (md_denom G)
                    |exact (md_raised G)|exact (md_pays G)|eassumption|exact CB0|exact (md_owner G)|exact (md_changed G)
                    |exact (md_hook G)].
  - (* MAddAllowed *) destruct (st_switch s); [|discriminate H]. eapply api_add_shape; [reflexivity|reflexivity|exact H].
  - (* MUpdateParams *) apply update_params_iff in H. destruct H as (cf & bf & (_ & C1 & C2) & ->).
    apply SParams; cbn [p_cfee p_bfee]; eapply check_coins_ok; eassumption.
Qed.

Lemma step_shape s o : is_block o = false -> o <> OGenesis -> tx_shape s o (fst (step s o)) (snd (step s o)).
Proof.
  intros Hb Hg. destruct o as [m|id l|id u max|t orc|t orc k|from to d amt|ls|].
  all: try discriminate Hb; try congruence; cbn [step].
  - unfold deliver_tx. destruct (check_basic m) as [c|] eqn:CB.
    + apply commit_shape. intros s'.
      apply handle_shape. exact CB.
    + cbn [fst snd]. pose proof (SRej s (OTx m) E_BASIC (st_trace s)) as R. rewrite with_trace_eta in R. exact R.
  - apply commit_shape. intros s'. apply api_add_shape; reflexivity.
  - apply commit_shape. intros s' H. apply api_update_iff in H. destruct H as (m & G & ->).
    pose proof (up_pos G) as Hm. destruct (find_auction s id) as [a|] eqn:Fa; [|destruct (up_auction G Fa)].
    (* the state is put_allowed .. id u m, which is what storing the one entry (_, AGood _ u, Some m) does: put_entry
       reads the address and the maximum only, so the other two components are arbitrary *)
    refine (SAllowed s (OApiUpdate id u max) id a _ _ [(0%N, AGood false u, Some m)] eq_refl eq_refl Fa _).
    repeat constructor. exact Hm.
  - apply commit_shape. intros s' H. destruct (0 <? amt); [|discriminate H].
    apply yields_send in H. destruct H as [Hp ->]. apply SSend, Hp.
  - apply SListeners.
Qed.

Lemma step_shape_acc s m : fst (step s (OTx m)) = Accepted -> tx_shape s (OTx m) Accepted (snd (step s (OTx m))).
Proof. intros Ho. rewrite <- Ho. apply step_shape; [reflexivity|discriminate]. Qed.

(* what an operation of tx_shape does to the record a of auction j: nothing, or an accepted cancellation cancels it, or
   an accepted bid takes from what remains *)
Inductive tx_auction_rel (o : op) (out : outcome) (j : N) (a : auction) : auction -> Prop :=
| RSame : tx_auction_rel o out j a a
| RCancel who : a_status a = StandBy -> out = Accepted -> o = OTx (MCancel who j) -> tx_auction_rel o out j a (cancel_of a)
| RBid who bt price coin x :
    a_status a = Started -> out = Accepted -> o = OTx (MPlaceBid who j bt price coin) ->
    tx_auction_rel o out j a (set_remaining a x).

(* shape_names Sh: the nine cases of Sh : tx_shape s o out s', in the order of the constructors, with these names for
   what each constructor carries:
     SRej o c tr | SSend from to d amt Hp | SListeners ls | SParams auth cfee bfee period p Hcf Hbf
     | SCreate m k1 k2 args a0 Hc Hid Hwf Hst He Hm Hf Hp | SCancel who u up id a0 F0 S0 Hp Hw Ho Hv
     | SPlace who u up id bt0 price0 coin bt price d amt a0 F0 S0 BA Hpos Hmin V Hp Hw CB Hv
     | SModify who u up id bid price0 coin a0 b0 p d amt F0 S0 Fb Ty Hmin Hpos Hd Hle Hp Hw CB Ho Hch Hv
     | SAllowed o id a0 k args l T0 A F0 Hl
   a0 is the auction concerned, F0 S0 its lookup and status, Fb the lookup of the bid, Hp that the transfers pay, Hw who
   signed (who = AGood up u), Hv that the hook is not vetoed.  The states stay folded (create_post, cancel_post,
   place_post, modify_post, the fold of put_entry).  The names are fixed: one that the context has already is to be
   cleared or renamed before. *)
Ltac shape_names Sh :=
  destruct Sh as [o c tr | from to d amt Hp | ls | auth cfee bfee period p Hcf Hbf
    | m k1 k2 args a0 Hc Hid Hwf Hst He Hm Hf Hp | who u up id a0 F0 S0 Hp Hw Ho Hv
    | who u up id bt0 price0 coin bt price d amt a0 F0 S0 BA Hpos Hmin V Hp Hw CB Hv
    | who u up id bid price0 coin a0 b0 p d amt F0 S0 Fb Ty Hmin Hpos Hd Hle Hp Hw CB Ho Hch Hv | o id a0 k args l T0 A F0 Hl ].

(* shape_cases Sh: shape_names, then the states unfolded so that their fields compute.  SPlace becomes three goals, one
   for each type of bid (fixed price, worth, many, in this order), with nb the bid placed; in SAllowed the state becomes
   with_allowed (hooked s k args) al, in the goal and in the hypotheses, with K the kept fact and KP the apersist fact
   of entries_put.  So there are eleven goals: SRej, SSend, SListeners, SParams, SCreate, SCancel, SPlace x 3, SModify,
   SAllowed. *)
Ltac shape_cases Sh :=
  shape_names Sh;
  [ | | | | unfold create_post in * | unfold cancel_post in *
    | unfold place_post, place_record, bid_takes, stored_bid in *;
      match goal with V : bid_valid _ _ (new_bid _ _ _ ?t _ _ _) |- _ => destruct t end;
      match goal with V : bid_valid _ _ ?b |- _ =>
        let nb := fresh "nb" in set (nb := b) in *;
        first [change (b_type nb) with BFixed in * | change (b_type nb) with BWorth in * | change (b_type nb) with BMany in *]
      end;
      cbv iota in *
    | unfold modify_post in *
    | let e := match goal with
               | |- context [fold_left (put_entry ?i) ?l0 ?s0] => constr:(entries_put i l0 s0)
               | _ : context [fold_left (put_entry ?i) ?l0 ?s0] |- _ => constr:(entries_put i l0 s0)
               end in
      let E := fresh in destruct e as (al & E & K & KP); rewrite E in *; clear E ].

Lemma find_put_cases s id a0 a1 j a :
  a_id a1 = a_id a0 -> find_auction s id = Some a0 -> find_auction s j = Some a ->
  (j = id /\ a = a0 /\ find_auction (put_auction s a1) j = Some a1) \/ find_auction (put_auction s a1) j = Some a.
Proof.
  intros Hid F0 F. rewrite find_auction_put, Hid, F.
  pose proof (find_auction_some _ _ _ F0) as [_ Hid0]. rewrite Hid0.
  destruct (N.eqb j id) eqn:E; [|right; reflexivity]. apply N.eqb_eq in E. subst j.
  left. split; [reflexivity|]. split; [congruence|reflexivity].
Qed.

Lemma tx_auction s o out s' j a :
  tx_shape s o out s' -> find_auction s j = Some a ->
  exists a', find_auction s' j = Some a' /\ tx_auction_rel o out j a a'.
Proof.
  intros Sh F. shape_cases Sh; try (exists a; split; [exact F|apply RSame]).
  - (* SCreate *) exists a. split; [|apply RSame].
    match goal with |- context [find_auction ?s1 j] => rewrite (find_auction_conv_app s s1 a0 j eq_refl) end.
    rewrite F. reflexivity.
  - (* SCancel *) destruct (find_put_cases s id a0 (cancel_of a0) j a (a_id_cancel_of a0) F0 F) as [(-> & -> & F')|F'].
    + exists (cancel_of a0). split; [exact F'|exact (RCancel _ _ _ _ who S0 eq_refl eq_refl)].
    + exists a. split; [exact F'|apply RSame].
  - (* SPlace, a fixed price bid *)
    destruct (find_put_cases s id a0 (set_remaining a0 (a_remaining a0 - sell_amount (a_pay_denom a0) nb)) j a eq_refl F0 F)
      as [(-> & -> & F')|F'].
    + eexists. split; [exact F'|exact (RBid _ _ _ _ who bt0 price0 coin _ S0 eq_refl eq_refl)].
    + exists a. split; [exact F'|apply RSame].
Qed.

(* What the states have for the record their handler writes (a creation appends its record: cr_auctions below); every
   other field is read by computation. *)
Lemma cancel_post_find s u up id a :
  find_auction s id = Some a -> find_auction (cancel_post s u up id a) id = Some (cancel_of a).
Proof.
  intros F. destruct (find_auction_some _ _ _ F) as [_ <-].
  exact (find_after_put s _ a (cancel_of a) eq_refl (a_id_cancel_of a) F).
Qed.

(* what CancelAuction books: the whole selling escrow to the auctioneer *)
Lemma cancel_post_bal s u up id a x d :
  st_bal (cancel_post s u up id a) x d = st_bal s x d + Checkers.net (cancel_xf s id a) x d.
Proof. exact (banked_bal s _ x d). Qed.

Lemma place_post_find s a b :
  find_auction s (a_id a) = Some a -> find_auction (place_post s a b) (a_id a) = Some (place_record a b).
Proof.
  intros F. unfold place_post, find_auction. cbn [st_auctions with_bids hooked with_trace with_auctions].
  destruct (b_type b) eqn:T; [exact (find_auction_put_same s (place_record a b) a F)|..].
  (* the record stays: nothing is taken *)
  all: replace (place_record a b) with a; [exact F|].
  all: unfold place_record, bid_takes; rewrite T, Z.sub_0_r; destruct a; reflexivity.
Qed.

Lemma place_post_ids s a b : map a_id (st_auctions (place_post s a b)) = map a_id (st_auctions s).
Proof.
  unfold place_post. cbn [st_auctions with_bids hooked with_trace with_auctions].
  destruct (b_type b); [apply map_id_put|reflexivity|reflexivity].
Qed.

Lemma modify_post_find s u id bid_id a b p d amt :
  find_bid s id bid_id = Some b -> find_bid (modify_post s u id bid_id a b p d amt) id bid_id = Some (set_b_terms b p amt).
Proof.
  intros F. destruct (find_bid_some _ _ _ _ F) as (_ & Ha & Hi). unfold find_bid, modify_post, put_bid in *.
  cbn [st_bids with_bids hooked with_trace banked with_bank]. rewrite find_put_bid, F.
  cbn [set_b_terms b_auction b_id]. rewrite Ha, Hi, !N.eqb_refl. reflexivity.
Qed.

Lemma target_create s m : is_create m = true -> target s (OTx m) = Some (st_aseq s).
Proof. destruct m; cbn [is_create target]; intros H; try discriminate H; reflexivity. Qed.

Lemma tx_frame s o out s' tid : tx_shape s o out s' -> target s o = Some tid -> frame tid s s'.
Proof.
  intros Sh T. shape_cases Sh; try discriminate T.
  (* SPlace, whatever the type of the bid *)
  4-6: cbn [target] in T; injection T as <-; pose proof (find_auction_some _ _ _ F0) as [_ Hid];
    pose proof (apply_xfers_esc_keep _ _ (st_bal s) (bid_xf_own s a0 nb)); unfold banked; by_fields.
  - (* SRej *) by_fields.
  - (* SCreate *) rewrite (target_create s m Hc) in T. injection T as <-.
    pose proof (apply_xfers_esc_keep _ _ (st_bal s) (create_xf_own s (a_auctioneer a0) (a_sell_denom a0) (a_sell_amt a0))).
    unfold banked. by_fields.
  - (* SCancel *) cbn [target] in T. injection T as <-. pose proof (find_auction_some _ _ _ F0) as [_ Hid].
    rewrite <- a_id_cancel_of in Hid. pose proof (apply_xfers_esc_keep _ _ (st_bal s) (cancel_xf_own s id a0)).
    unfold banked. by_fields.
  - (* SModify *) cbn [target] in T. injection T as <-. pose proof (find_bid_some _ _ _ _ Fb) as (_ & Hb & _).
    pose proof (apply_xfers_esc_keep _ _ (st_bal s) (modify_xf_own u id a0 b0 p d amt)). unfold banked. by_fields.
  - (* SAllowed *) rewrite T0 in T. injection T as <-. by_fields.
Qed.

Lemma step_frame_tx s o tid : target s o = Some tid -> frame tid s (snd (step s o)).
Proof.
  intros T. destruct (target_some_tx s o tid T) as [B Hg]. exact (tx_frame s o _ _ tid (step_shape s o B Hg) T).
Qed.

(* the operation o, with outcome out from s to s', is an accepted creation of the auction a *)
Record creation (s : state) (o : op) (out : outcome) (s' : state) (a : auction) : Prop := {
  cr_msg : exists m, o = OTx m /\ is_create m = true;
  cr_accepted : out = Accepted;
  cr_auctions : st_auctions s' = st_auctions s ++ [a];
  cr_id : a_id a = st_aseq s;
  cr_aseq : st_aseq s' = (st_aseq s + 1)%N;
  cr_status : a_status a = (if a_start a <=? st_now s then Started else StandBy);
  cr_ends : exists e, a_ends a = [e];
  cr_rounds : (a_max_round a <= MaxExtendedRound)%N;
  cr_fixed : a_type a = FixedPrice -> a_max_round a = 0%N }.
Arguments cr_msg {s o out s' a}. Arguments cr_accepted {s o out s' a}. Arguments cr_auctions {s o out s' a}.
Arguments cr_id {s o out s' a}. Arguments cr_aseq {s o out s' a}. Arguments cr_status {s o out s' a}.
Arguments cr_ends {s o out s' a}. Arguments cr_rounds {s o out s' a}. Arguments cr_fixed {s o out s' a}.

Lemma tx_auction_list s o out s' :
  tx_shape s o out s' ->
  (exists a, creation s o out s' a)
  \/ (map a_id (st_auctions s') = map a_id (st_auctions s) /\ st_aseq s' = st_aseq s).
Proof.
  intros Sh. shape_cases Sh; try (right; split; reflexivity).
  - (* SCreate *) left. exists a0.
    constructor; try assumption; try reflexivity; [exists m; auto|intros Hty; apply (Hf Hty)].
  - (* SCancel *) right. split; [|reflexivity]. apply map_id_put.
  - (* SPlace, a fixed price bid *) right. split; [|reflexivity]. apply map_id_put.
Qed.

Lemma tx_ids_ok s o out s' : tx_shape s o out s' -> ids_ok s -> ids_ok s'.
Proof.
  intros Sh OK. destruct (tx_auction_list _ _ _ _ Sh) as [(a & C)|[HM HS]].
  - exact (ids_ok_create _ _ _ (cr_auctions C) (cr_id C) (cr_aseq C) OK).
  - eapply ids_ok_same; eassumption.
Qed.

Lemma tx_create s m s' :
  tx_shape s (OTx m) Accepted s' -> is_create m = true -> exists a, creation s (OTx m) Accepted s' a.
Proof.
  intros Sh Hc. destruct (tx_auction_list _ _ _ _ Sh) as [C|[Hm Hq]]; [exact C|].
  exfalso. inversion Sh; subst; try discriminate Hc.
  - cbn [st_aseq create_post hooked with_trace with_auctions banked with_bank with_aseq] in Hq. lia.
  - destruct m; discriminate.
Qed.

Lemma tx_rejected s o c s' : tx_shape s o (Rejected c) s' -> exists tr, s' = with_trace s tr.
Proof. intros Sh. inversion Sh; subst. eauto. Qed.

(* The shape of one accepted message, inverted: who sent it and with which terms (the call ValidateBasic made of it),
   the records it found, its guards, the state. *)
Lemma tx_cancel_inv s who id s' :
  tx_shape s (OTx (MCancel who id)) Accepted s' ->
  exists up u a, who = AGood up u /\ find_auction s id = Some a /\ cancel_ok s u id a /\ s' = cancel_post s u up id a.
Proof.
  intros Sh. inversion Sh; subst; try discriminate. do 3 eexists. split; [reflexivity|]. split; [eassumption|].
  split; [constructor; assumption || reflexivity|reflexivity].
Qed.

Lemma tx_place_inv s who id bt0 price0 coin s' :
  tx_shape s (OTx (MPlaceBid who id bt0 price0 coin)) Accepted s' ->
  exists up u bt price d amt a,
    who = AGood up u /\ check_basic (MPlaceBid who id bt0 price0 coin) = Some (CPlaceBid u id bt price d amt) /\
    find_auction s id = Some a /\ place_ok s a (new_bid s u id bt price d amt) /\
    s' = place_post s a (new_bid s u id bt price d amt).
Proof.
  intros Sh. inversion Sh; subst; try discriminate. do 7 eexists. split; [reflexivity|]. split; [eassumption|].
  split; [eassumption|]. split; [constructor; assumption|reflexivity].
Qed.

Lemma tx_modify_inv s who id bid price0 coin s' :
  tx_shape s (OTx (MModifyBid who id bid price0 coin)) Accepted s' ->
  exists up u p d amt a b,
    who = AGood up u /\ check_basic (MModifyBid who id bid price0 coin) = Some (CModifyBid u id bid p d amt) /\
    find_auction s id = Some a /\ find_bid s id bid = Some b /\ modify_ok s u id a b p d amt /\
    s' = modify_post s u id bid a b p d amt.
Proof.
  intros Sh. inversion Sh; subst; try discriminate. do 7 eexists. split; [reflexivity|]. split; [eassumption|].
  split; [eassumption|]. split; [eassumption|]. split; [constructor; assumption || reflexivity|reflexivity].
Qed.

Arguments tx_cancel_inv {s who id s'}. Arguments tx_place_inv {s who id bt0 price0 coin s'}.
Arguments tx_modify_inv {s who id bid price0 coin s'}.

(* an accepted bid is appended with the next number of its auction, and that number is recorded *)
Lemma place_accepted_appends s who id bt price coin :
  fst (step s (OTx (MPlaceBid who id bt price coin))) = Accepted ->
  exists nb, st_bids (snd (step s (OTx (MPlaceBid who id bt price coin)))) = st_bids s ++ [nb]
    /\ b_auction nb = id /\ b_id nb = (st_bseq s id + 1)%N
    /\ st_bseq (snd (step s (OTx (MPlaceBid who id bt price coin)))) = upd (st_bseq s) id (st_bseq s id + 1)%N.
Proof.
  intros Ho. destruct (tx_place_inv (step_shape_acc _ _ Ho)) as (up & u & t & p & d & amt & a & _ & _ & _ & _ & ->).
  (* place_post appends stored_bid a b, which is b but for its flag, and records its number *)
  exists (stored_bid a (new_bid s u id t p d amt)). repeat split.
Qed.

Lemma tx_bseq s o out s' :
  tx_shape s o out s' ->
  st_bseq s' = st_bseq s \/ (out = Accepted /\ exists who id bt price coin, o = OTx (MPlaceBid who id bt price coin)).
Proof.
  intros Sh. shape_cases Sh; try (left; reflexivity).
  (* SPlace *)
  all: right; split; [reflexivity|]; do 5 eexists; reflexivity.
Qed.

(* none writes the vesting queues or the matched counts; of these operations only the accepted ones touch the bank *)
Lemma tx_vqs s o out s' : tx_shape s o out s' -> st_vqs s' = st_vqs s.
Proof. intros Sh. shape_cases Sh; reflexivity. Qed.
Lemma tx_mlen s o out s' : tx_shape s o out s' -> st_mlen s' = st_mlen s.
Proof. intros Sh. shape_cases Sh; reflexivity. Qed.

Lemma tx_not_accepted s o out s' : tx_shape s o out s' -> out <> Accepted -> same_bank s s'.
Proof. intros Sh Hna. destruct Sh; try congruence; split; reflexivity. Qed.

Lemma bid_keys_set_terms b p amt : bid_keys_eq b (set_b_terms b p amt).
Proof. repeat split. Qed.

Lemma tx_bids_evolve s o out s' : tx_shape s o out s' -> bids_evolve s s'.
Proof.
  intros Sh. shape_cases Sh; try (apply (bids_evolve_by_same _ bid_keys_eq_refl); reflexivity).
  (* SPlace *)
  1-3: eapply (bids_evolve_by_app _ bid_keys_eq_refl _ _ [_]); reflexivity.
  (* SModify *)
  pose proof (find_bid_some _ _ _ _ Fb) as (_ & Hb1 & Hb2).
  eapply (bids_evolve_by_put_bid _ bid_keys_eq_refl s _ b0 (set_b_terms b0 p amt)); [reflexivity| |apply bid_keys_set_terms].
  cbn [b_auction b_id set_b_terms]. rewrite Hb1, Hb2. exact Fb.
Qed.

(* what every operation allowed by G keeps holds along every history of such operations *)
Theorem run_ind (G : op -> Prop) (P : state -> Prop) :
  (forall s o, G o -> P s -> P (snd (step s o))) ->
  forall ops s, Forall G ops -> P s -> P (run s ops).
Proof.
  intros St. unfold run. induction ops as [|o ops IH]; cbn [fold_left]; intros s HF H; [exact H|].
  inversion HF as [|? ? Ho HF']; subst. apply IH; [exact HF'|apply St; assumption].
Qed.

Corollary run_ind_all (P : state -> Prop) :
  (forall s o, P s -> P (snd (step s o))) -> forall ops s, P s -> P (run s ops).
Proof.
  intros St ops s. apply (run_ind (fun _ => True)); [intros s0 o _; apply St|].
  apply Forall_forall. intros o _. exact I.
Qed.

Lemma run_app s ops ops' : run s (ops ++ ops') = run (run s ops) ops'.
Proof. apply fold_left_app. Qed.

Lemma run_snoc s ops o : run s (ops ++ [o]) = snd (step (run s ops) o).
Proof. apply run_app. Qed.

Lemma run_cons s o ops : run s (o :: ops) = run (snd (step s o)) ops.
Proof. reflexivity. Qed.

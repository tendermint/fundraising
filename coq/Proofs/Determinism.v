(* C14: the computations behind the five Go map-range loops of the module do not depend on the
   order in which the runtime enumerates the map.  Two shapes:
   - collect the keys, then sort them (AllocateSellingCoin, RefundPayingCoin, BidsByPrice);
   - write one entry per (distinct) key into other maps (CalculateBatchAllocation, twice).
   Then: the order in which types.Match sweeps the bids of a batch auction is determined by the bids. *)
From Coq Require Import ZArith NArith List Bool Lia Permutation Sorted Relations RelationClasses.
From FR Require Import Types Match.
From FR.Proofs Require Import ListFacts MatchBase MatchDemand.
Import ListNotations.

(* collect, then sort: the list is strictly increasing and has the same members, and there is only one such list *)
Theorem bidders_of_perm : forall bs bs', Permutation bs bs' -> bidders_of bs = bidders_of bs'.
Proof.
  intros bs bs' H.
  apply (ssorted_perm_unique N.lt N.lt_irrefl N.lt_trans); [apply bidders_of_sorted|apply bidders_of_sorted|].
  apply NoDup_Permutation; [apply bidders_of_nodup|apply bidders_of_nodup|].
  intros u. rewrite !bidders_of_in. split; intros (b & Hb & E); exists b; split; try exact E.
  - apply (Permutation_in _ H). exact Hb.
  - apply (Permutation_in _ (Permutation_sym H)). exact Hb.
Qed.

Definition write_all {V} (f0 : N -> V) (l : list (N * V)) : N -> V :=
  fold_left (fun f kv => upd f (fst kv) (snd kv)) l f0.

Lemma write_all_cons {V} (f0 : N -> V) k v l : write_all f0 ((k, v) :: l) = write_all (upd f0 k v) l.
Proof. reflexivity. Qed.

Lemma write_all_notin {V} : forall (l : list (N * V)) f0 k, ~ In k (map fst l) -> write_all f0 l k = f0 k.
Proof.
  induction l as [|[k0 v0] r IH]; intros f0 k Hn; [reflexivity|].
  cbn [map fst In] in Hn. rewrite write_all_cons, IH by tauto.
  unfold upd. destruct (N.eqb_spec k k0) as [E|_]; [symmetry in E; tauto|reflexivity].
Qed.

Lemma write_all_in {V} : forall (l : list (N * V)) f0 k v,
  NoDup (map fst l) -> In (k, v) l -> write_all f0 l k = v.
Proof.
  induction l as [|[k0 v0] r IH]; intros f0 k v Hnd Hin; [destruct Hin|].
  cbn [map fst] in Hnd. inversion Hnd as [|? ? Hnotin Hnd']; subst.
  rewrite write_all_cons. destruct Hin as [E|Hin].
  - inversion E; subst. rewrite write_all_notin by exact Hnotin.
    unfold upd. rewrite N.eqb_refl. reflexivity.
  - apply IH; assumption.
Qed.

Theorem keyed_writes_perm {V} : forall (l l' : list (N * V)) f0,
  NoDup (map fst l) -> Permutation l l' -> forall k, write_all f0 l k = write_all f0 l' k.
Proof.
  intros l l' f0 Hnd Hp k.
  assert (Hnd' : NoDup (map fst l')) by (eapply Permutation_NoDup; [apply Permutation_map; eassumption|assumption]).
  destruct (in_dec N.eq_dec k (map fst l)) as [Hin|Hnin].
  - apply in_map_iff in Hin. destruct Hin as [[k0 v] [E Hin]]. cbn in E; subst k0.
    rewrite (write_all_in l f0 k v) by assumption.
    symmetry. apply write_all_in; [assumption|]. eapply Permutation_in; eassumption.
  - rewrite write_all_notin by assumption.
    rewrite write_all_notin; [reflexivity|]. intro Hin. apply Hnin.
    eapply Permutation_in; [apply Permutation_sym, Permutation_map; eassumption|assumption].
Qed.

Definition desc (x y : Z) : Prop := (y < x)%Z.
Lemma sorted_desc_unique : forall l l' : list Z,
  Permutation l l' -> StronglySorted desc l -> StronglySorted desc l' -> l = l'.
Proof.
  intros l l' Hp Hs Hs'. apply (ssorted_perm_unique desc); try assumption; unfold desc.
  - intros x. lia.
  - intros x y z. lia.
Qed.

Open Scope Z_scope.

(* the order that valid_order demands of a sweep: by price, highest first, equal prices by bid id *)
Definition before (b b' : bid) : Prop :=
  b_price b' < b_price b \/ (b_price b' = b_price b /\ (b_id b < b_id b')%N).

Lemma before_trans : Transitive before.
Proof.
  intros x y z [H1|[H1 H1']] [H2|[H2 H2']]; unfold before.
  - left; lia.
  - left; lia.
  - left; lia.
  - right. split; lia.
Qed.

Lemma before_irrefl b : ~ before b b.
Proof. intros [H|[_ H]]; lia. Qed.

Lemma order_sorted : forall l, prices_desc l = true -> ties_by_id l = true -> Sorted before l.
Proof.
  induction l as [|b r IH]; intros Hp Ht; [constructor|].
  destruct r as [|b' r'].
  - constructor; constructor.
  - cbn [prices_desc] in Hp. cbn [ties_by_id] in Ht.
    apply andb_true_iff in Hp. destruct Hp as [Hp1 Hp2]. apply andb_true_iff in Ht. destruct Ht as [Ht1 Ht2].
    constructor; [apply IH; assumption|]. constructor.
    apply Z.leb_le in Hp1. apply orb_true_iff in Ht1. destruct Ht1 as [Ht1|Ht1].
    + apply negb_true_iff, Z.eqb_neq in Ht1. left. lia.
    + apply N.ltb_lt in Ht1. destruct (Z.eq_dec (b_price b') (b_price b)) as [E|E].
      * right. split; assumption.
      * left. lia.
Qed.

Theorem valid_order_unique bs ids ids' o o' :
  valid_order bs ids = Some o -> valid_order bs ids' = Some o' -> o = o' /\ ids = ids'.
Proof.
  intros H H'.
  pose proof (valid_order_perm _ _ _ H) as P. pose proof (valid_order_perm _ _ _ H') as P'.
  destruct (valid_order_sorted _ _ _ H) as (D & T). destruct (valid_order_sorted _ _ _ H') as (D' & T').
  assert (Eo : o = o').
  { apply (ssorted_perm_unique before before_irrefl before_trans).
    - apply Sorted_StronglySorted; [exact before_trans|apply order_sorted; assumption].
    - apply Sorted_StronglySorted; [exact before_trans|apply order_sorted; assumption].
    - eapply Permutation_trans; [exact P|symmetry; exact P']. }
  split; [exact Eo|]. rewrite <- (valid_order_ids _ _ _ H), <- (valid_order_ids _ _ _ H'), Eo. reflexivity.
Qed.

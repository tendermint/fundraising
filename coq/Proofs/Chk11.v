(* Checker link for C11: Checkers.c11_ok holds of every transition of the model from a state satisfying the invariant.
   Part A (exact acceptance of a modification and its effects) comes from C18 and the state ModifyBid leaves;
   part B (no operation other than GENESIS removes a bid or changes its identity, price, amount; only an accepted
   modification raises price / amount / reservation) needs that blocks only rewrite the matched flags. *)
From Coq Require Import ZArith NArith List Bool Lia.
From FR Require Import Types Match Step Model Spec Checkers.
From FR.Proofs Require Import ListFacts InvDefs FrameFacts TxFacts BlockFacts BlockWalk InvAll FixedFacts.
From FR.Proofs Require EqbFacts DecFacts Ledger PrecondFacts PrecondEffects ChkSettle Chk18.
Import ListNotations.
Open Scope Z_scope.

Definition same_terms (b b' : bid) : Prop := bid_keys_eq b b' /\ b_price b' = b_price b /\ b_amt b' = b_amt b.

Lemma same_terms_refl b : same_terms b b.
Proof. split; [apply bid_keys_eq_refl|split; reflexivity]. Qed.

Lemma flag_only_same_terms b b' : flag_only b b' -> same_terms b b'.
Proof. intros [x ->]. repeat split. Qed.

(* what the second half of Checkers.c11_ok tests of a bid b of the pre-state and the bid b' under its key afterwards *)
Definition bid_check (o : op) (pd : N) (b b' : bid) : bool :=
  N.eqb (b_bidder b') (b_bidder b) && btype_eqb (b_type b') (b_type b) && N.eqb (b_denom b') (b_denom b)
  && (b_price b <=? b_price b') && (b_amt b <=? b_amt b')
  && (pay_amount pd b <=? pay_amount pd b')
  && (match o with
      | OTx (MModifyBid _ id i _ _) => (N.eqb id (b_auction b) && N.eqb i (b_id b)) || ((b_price b =? b_price b') && (b_amt b =? b_amt b'))
      | _ => (b_price b =? b_price b') && (b_amt b =? b_amt b')
      end).

Lemma bid_check_same_terms o pd b b' : same_terms b b' -> bid_check o pd b b' = true.
Proof.
  intros ((_ & _ & Hu & Ht & Hd) & Hp & Ha). unfold bid_check, pay_amount.
  rewrite Hu, Ht, Hd, Hp, Ha, !N.eqb_refl, EqbFacts.btype_eqb_refl, !Z.leb_refl, !Z.eqb_refl. cbn [andb].
  destruct o as [m| | | | | | |]; try reflexivity. destruct m; try reflexivity. apply orb_true_r.
Qed.

Lemma bid_check_modified who id i price coin pd b p amt :
  b_auction b = id -> b_id b = i -> b_price b <= p -> b_amt b <= amt ->
  pay_amount pd b <= pay_amount pd (set_b_terms b p amt) ->
  bid_check (OTx (MModifyBid who id i price coin)) pd b (set_b_terms b p amt) = true.
Proof.
  intros Ha Hi Hp Hamt Hpay. unfold bid_check. cbn [set_b_terms b_bidder b_type b_denom b_price b_amt].
  rewrite !N.eqb_refl, EqbFacts.btype_eqb_refl, Ha, Hi, !N.eqb_refl. cbn [andb orb]. rewrite andb_true_r.
  apply Z.leb_le in Hp, Hamt, Hpay. rewrite Hp, Hamt, Hpay. reflexivity.
Qed.

Lemma Inv_bid_auction s b : Inv s -> In b (st_bids s) -> exists a, find_auction s (b_auction b) = Some a.
Proof.
  intros I Hb. destruct (inv_bids _ I) as [W _]. rewrite Forall_forall in W.
  destruct (bwf_auction _ _ (W b Hb)) as (a & Fa & _). eauto.
Qed.

(* b' passes the test whatever the paying denomination *)
Definition passes (o : op) (b b' : bid) : Prop := forall pd, bid_check o pd b b' = true.

Lemma passes_same_terms o b b' : same_terms b b' -> passes o b b'.
Proof. intros K pd. apply bid_check_same_terms, K. Qed.
Lemma passes_refl o b : passes o b b.
Proof. apply passes_same_terms, same_terms_refl. Qed.

(* a block rewrites matched flags only; of the other operations only an accepted modification rewrites a bid, and it
   raises its terms (the cases of tx_shape) *)
Lemma step_bids_pass s o : Inv s -> o <> OGenesis -> bids_evolve_by (passes o) s (snd (step s o)).
Proof.
  intros I Hgen. destruct (FrameFacts.is_block o) eqn:Hblk.
  - pose proof (we_bids _ _ (step_block_eff s o (Inv_ids_ok _ I) Hblk)) as E.
    exact (bids_evolve_by_sub _ _ _ _ (fun b b' K => passes_same_terms o b b' (flag_only_same_terms b b' K)) E).
  - pose proof (step_shape s o Hblk Hgen) as Sh. revert Sh. generalize (fst (step s o)) (snd (step s o)).
    intros out s' Sh. clear Hblk Hgen.
    (* shape_cases (TxFacts) names what each case has: here Fb (the bid found), b0, p, amt, Hle of SModify *)
    shape_cases Sh; try (apply (bids_evolve_by_same _ (passes_refl _)); reflexivity).
    (* a bid placed, of each of the three types *)
    1-3: eapply (bids_evolve_by_app _ (passes_refl _)); reflexivity.
    (* a modification *)
    destruct (find_bid_some _ _ _ _ Fb) as (Hin & Hba & Hbi). destruct (Inv_bids_pos _ I b0 Hin) as [Hbp Hbam].
    apply (bids_evolve_by_put_bid (passes _) (passes_refl _) s _ b0 (set_b_terms b0 p amt)); [reflexivity| |].
    + cbn [set_b_terms b_auction b_id]. rewrite Hba, Hbi. exact Fb.
    + intros pd. apply bid_check_modified; [exact Hba|exact Hbi|apply Hle|apply Hle|].
      apply DecFacts.pay_amount_mono; lia.
Qed.

Theorem c11_ok_model s o : Inv s -> c11_ok (model_trans s o) = true.
Proof.
  intros I. pose proof (Inv_ghost_reset s I) as I0.
  rewrite model_trans_eq. cbv zeta. unfold c11_ok. cbn [t_post t_pre t_op t_class t_xfers].
  apply andb_true_iff. split.
  - (* part A *)
    destruct o as [m| | | | | | |]; try reflexivity.
    destruct (check_basic m) as [c|] eqn:CB; [|reflexivity].
    destruct c as [| | | |u id bid_id price d amt| |]; try reflexivity.
    apply andb_true_iff. split.
    + pose proof (class_ok_precond s m I) as Hacc. unfold precond in Hacc. rewrite CB in Hacc. exact Hacc.
    + destruct (oclass_eqb (class_of _) KOk) eqn:Ek; [|reflexivity].
      apply class_ok_iff in Ek.
      (* an accepted modification: ModifyBid succeeded, the state is modify_post *)
      destruct (accepted_handle (ghost_reset s) m Ek) as (c & Hc & Hh).
      rewrite CB in Hc. injection Hc as <-. cbn [handle] in Hh. apply modify_bid_iff in Hh.
      destruct Hh as (a & b & Fa & Fb & G & E). rewrite E.
      pose proof (md_batch G) as Ty. destruct (md_raised G) as [Hpl Hal]. destruct (md_denom G).
      change (find_auction s id = Some a) in Fa. change (find_bid s id bid_id = Some b) in Fb.
      rewrite Fa, Fb, (TxFacts.modify_post_find (ghost_reset s) u id bid_id a b price (b_denom b) amt Fb).
      rewrite EqbFacts.bid_eqb_refl. cbn [andb].
      change (st_xfers (modify_post (ghost_reset s) u id bid_id a b price (b_denom b) amt))
        with (modify_xf u id a b price (b_denom b) amt).
      rewrite (PrecondFacts.WF_modify_xf (ghost_reset s) u id bid_id a b price amt (Inv_WF _ I0) Fa Fb Ty).
      destruct (find_bid_some _ _ _ _ Fb) as (Hin & _). destruct (Inv_bids_pos _ I b Hin) as [Hbp Hbam].
      pose proof (DecFacts.pay_amount_mono (a_pay_denom a) b price amt) as Hm.
      rewrite Z.max_r by lia. rewrite !Ledger.sum_xfers_send. unfold from_to. cbn [Ledger.mkx x_from x_to x_denom addr_eqb role_eqb].
      rewrite !N.eqb_refl. cbn [andb]. rewrite !Z.eqb_refl. reflexivity.
  - (* part B *)
    apply forallb_forall. intros b Hb.
    destruct (Inv_bid_auction s b I Hb) as [a Fa].
    pose proof (Inv_find_bid_in s b I Hb) as Fb.
    apply ChkSettle.not_genesis_match. intros Hg. rewrite Fa.
    change (match find_bid (snd (step (ghost_reset s) o)) (b_auction b) (b_id b) with
            | Some b' => bid_check o (a_pay_denom a) b b'
            | None => false end = true).
    destruct (step_bids_pass (ghost_reset s) o I0 Hg _ _ _ Fb) as (b' & Fb' & Kb).
    rewrite Fb'. apply Kb.
Qed.

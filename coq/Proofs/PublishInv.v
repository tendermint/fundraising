(* J9 (InvDefs.mlen_inv): the recorded number of matched bids of a batch auction is the number of its
   flagged bids; preserved by the processing of one auction, by a whole block and by every operation other than
   GENESIS (GenesisInv.mlen_inv_same), given only that auction ids and bid keys are unique and every bid belongs to
   an auction.  book_ok and books_ok are what Properties/C16.v states beside it; the proofs do not use them. *)
From Coq Require Import ZArith NArith List Bool Lia.
From FR Require Import Types Step Genesis Model.
From FR.Proofs Require Import ListFacts FrameFacts TxFacts BlockFacts BlockWalk MatchDemand InvDefs VestingFacts PublishFacts PublishStable.
From FR.Proofs Require Import InvStaticUpd LedgerSettle.
From FR.Proofs Require InvStaticBlock MatchConseq.
Import ListNotations.
Open Scope Z_scope.

Definition mlen_ok (s : state) (j : N) : Prop :=
  match find_auction s j with
  | Some a => match a_type a with
              | Batch => st_mlen s j = count_matched (st_bids s) j
              | FixedPrice => st_mlen s j = 0
              end
  | None => st_mlen s j = 0
  end.
Lemma mlen_inv_ok s : mlen_inv s <-> forall j, mlen_ok s j.
Proof. reflexivity. Qed.

(* what is assumed of the rest of the invariant: from J3, that every bid belongs to an existing auction *)
Definition bids_ref (s : state) : Prop := forall b, In b (st_bids s) -> find_auction s (b_auction b) <> None.
(* J3, J4, J5 restricted to one auction: the book the matching theorems need *)
Definition book_ok (s : state) (a : auction) : Prop :=
  a_type a = Batch -> a_status a = Started ->
  book_wf (bids_of s (a_id a)) (allowed_of s (a_id a)) /\ 0 <= a_sell_amt a.

Lemma mlen_inv_settle_state s a0 a mi wr :
  find_auction s (a_id a0) = Some a0 -> a_id a = a_id a0 -> a_type a = a_type a0 -> mlen_inv s ->
  mlen_inv (settle_state s a mi wr).
Proof.
  intros F U1 U2 W. unfold settle_state. apply (mlen_inv_put_auction _ a0); [exact F|exact U1|exact U2|exact W].
Qed.

(* by the action taken, each a pure update of InvStaticUpd; nothing is asked of the order book: the matched ids are
   distinct ids of the book whatever it holds (batch_matched_ids) *)
Theorem mlen_inv_process t orc s a s' :
  find_auction s (a_id a) = Some a -> mlen_inv s -> process t orc s a = Ok s' -> mlen_inv s'.
Proof.
  intros F W H. apply process_iff in H. destruct H as (x & C & _ & ->).
  destruct C as [C|St L|St L Ty|mi St L Ty (order & VO & CB)|St]; cbn [act_state].
  - (* idle *) exact W.
  - (* open *) apply (mlen_inv_put_auction s a); [exact F|reflexivity|reflexivity|exact W].
  - (* settle, fixed price *) apply (mlen_inv_settle_state s a); [exact F|reflexivity|reflexivity|exact W].
  - (* batch: flags, then extend or settle *) destruct (MatchConseq.batch_matched_ids a _ _ order _ mi VO CB) as (Nm & Hm).
    destruct (valid_order_ids_nodup _ _ _ VO) as (Nb & _).
    pose proof (mlen_inv_set_flags s (a_id a) a _ F Ty Nb Nm Hm W) as W1.
    destruct (decision s a mi); cbn [act_state settle_from settle_as].
    + apply (mlen_inv_put_auction _ a); [exact F|reflexivity|reflexivity|exact W1].
    + apply (mlen_inv_settle_state _ a); [exact F|reflexivity|reflexivity|exact W1].
  - (* release *) unfold released_state. cbv zeta.
    destruct (last_due_rec _ _); [apply (mlen_inv_put_auction _ a); [exact F|reflexivity|reflexivity|]|]; exact W.
Qed.

Theorem mlen_inv_process_all t orc l s s' :
  NoDup (map a_id l) -> (forall a, In a l -> find_auction s (a_id a) = Some a) ->
  mlen_inv s -> process_all t orc s l = Ok s' -> mlen_inv s'.
Proof.
  intros ND Hl W. apply (InvStaticBlock.process_all_ind mlen_inv t orc l); [|exact W|exact ND|exact Hl].
  intros s0 a s1 _ W0 F E. exact (mlen_inv_process t orc s0 a s1 F W0 E).
Qed.

Definition books_ok (s : state) : Prop := forall a, In a (st_auctions s) -> book_ok s a.

Lemma cancel_of_type a : a_type (cancel_of a) = a_type a.
Proof. unfold cancel_of. destruct (a_type a) eqn:T; cbn; exact T. Qed.

(* by the cases of tx_shape, each a pure update of InvStaticUpd up to the fields J9 does not read; a bid is stored
   matched only if it is a fixed price bid, and those are placed on fixed price auctions (V) *)
Lemma mlen_inv_tx_shape s o out s' :
  tx_shape s o out s' -> bids_ref s -> bid_keys_unique s -> mlen_inv s -> mlen_inv s'.
Proof.
  intros Sh BR U W.
  shape_cases Sh; try (apply (mlen_inv_ext s); [reflexivity|reflexivity|reflexivity|exact W]).
  - (* create *)
    apply (mlen_inv_ext (with_auctions (with_aseq s (st_aseq s + 1)) (st_auctions s ++ [a0]))); try reflexivity.
    apply mlen_inv_create; [|exact W]. intros Fn. apply filter_nil_iff. intros y Hy.
    apply N.eqb_neq. intros Hj. apply (BR y Hy). rewrite Hj. exact Fn.
  - (* cancel *)
    pose proof (find_auction_some _ _ _ F0) as [_ Hid]. rewrite <- Hid in F0.
    apply (mlen_inv_ext (put_auction s (cancel_of a0))); try reflexivity.
    apply (mlen_inv_put_auction s a0); [exact F0|apply a_id_cancel_of|apply cancel_of_type|exact W].
  - (* place, fixed price: the remaining amount is written *)
    pose proof (find_auction_some _ _ _ F0) as [_ Hid]. destruct V as (T & _).
    match goal with |- context [set_remaining a0 ?x] => set (a1 := set_remaining a0 x) end.
    match goal with |- context [st_bids s ++ [?b]] => set (sb := b) end.
    apply (mlen_inv_ext (with_bids (with_bseq (put_auction s a1) (upd (st_bseq s) id (b_id nb))) (st_bids s ++ [sb])));
      try reflexivity.
    apply (mlen_inv_place (put_auction s a1)).
    + intros a Fa Ty. change (b_auction sb) with id in Fa. rewrite <- Hid in Fa, F0.
      change (a_id a0) with (a_id a1) in Fa. rewrite (find_auction_put_same s a1 a0 F0) in Fa.
      injection Fa as <-. cbn in Ty. congruence.
    + rewrite <- Hid in F0. apply (mlen_inv_put_auction s a0); [exact F0|reflexivity|reflexivity|exact W].
  - (* place, worth *)
    apply (mlen_inv_ext (with_bids (with_bseq s (upd (st_bseq s) id (b_id nb))) (st_bids s ++ [nb]))); try reflexivity.
    apply mlen_inv_place; [reflexivity|exact W].
  - (* place, many *)
    apply (mlen_inv_ext (with_bids (with_bseq s (upd (st_bseq s) id (b_id nb))) (st_bids s ++ [nb]))); try reflexivity.
    apply mlen_inv_place; [reflexivity|exact W].
  - (* modify *)
    apply (mlen_inv_ext (put_bid s (set_b_terms b0 p amt))); try reflexivity.
    apply mlen_inv_put_bid; [|exact W]. intros x Hx E1 E2. apply find_bid_some in Fb. destruct Fb as (Hb0 & _ & _).
    apply (NoDup_map_inj (fun b => (b_auction b, b_id b)) (st_bids s)); try assumption. congruence.
Qed.

Theorem mlen_inv_tx s o :
  is_block o = false -> o <> OGenesis -> bids_ref s -> bid_keys_unique s -> mlen_inv s ->
  mlen_inv (snd (step s o)).
Proof. intros B Hg. apply (mlen_inv_tx_shape s o (fst (step s o))), step_shape; assumption. Qed.

(* InvStatic.mlen_inv_step is the same conclusion from all of InvS *)
Theorem mlen_inv_step_alone s o :
  ids_ok s -> bids_ref s -> bid_keys_unique s -> mlen_inv s -> o <> OGenesis -> mlen_inv (snd (step s o)).
Proof.
  intros OK BR U W Hg. destruct (is_block o) eqn:B; [|apply mlen_inv_tx; assumption].
  destruct (step_block s o B) as [[_ H]|[_ (tr & ->)]]; [|exact W].
  rewrite begin_block_eq in H. revert H.
  apply (mlen_inv_process_all _ _ (st_auctions s)); [apply OK| |exact W].
  intros a Ha. exact (ids_ok_find s a OK Ha).
Qed.

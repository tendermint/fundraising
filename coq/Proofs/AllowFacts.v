(* C10: the allow-list.  Which operations can change it, a bid needs an entry, entries are never
   removed (and, outside the API and GENESIS, not altered: cap_unchanged), nothing changes while the build switch is off
   (gate_tx, gate_add_rejected), and every stored bid has an entry in every reachable state. *)
From Coq Require Import ZArith NArith List Bool.
From FR Require Import Types Bank Match Step Genesis Model.
From FR.Proofs Require Import ListFacts HookBase HookFacts FrameFacts TxFacts BlockFacts BlockWalk GenesisSort ImportShape.
Import ListNotations.
Open Scope Z_scope.

Definition bsub (bs bs' : list bid) : Prop :=
  forall b', In b' bs' -> exists b, In b bs /\ b_auction b = b_auction b' /\ b_bidder b = b_bidder b'.

Lemma bsub_refl : forall bs, bsub bs bs.
Proof. intros bs b Hb. exists b. repeat split; assumption. Qed.

Lemma bsub_trans : forall b1 b2 b3, bsub b1 b2 -> bsub b2 b3 -> bsub b1 b3.
Proof.
  intros b1 b2 b3 H12 H23 b3' Hb3. apply H23 in Hb3 as [b2' [Hb2 [Ha2 Hu2]]].
  apply H12 in Hb2 as [b1' [Hb1 [Ha1 Hu1]]]. exists b1'. repeat split; congruence.
Qed.

Lemma bsub_map : forall (f : bid -> bid) bs,
  (forall b, In b bs -> exists b0, In b0 bs /\ b_auction b0 = b_auction (f b) /\ b_bidder b0 = b_bidder (f b)) ->
  bsub bs (map f bs).
Proof. intros f bs Hf b' Hb'. apply in_map_iff in Hb' as [b [<- Hb]]. exact (Hf b Hb). Qed.

Definition keepsL (al : list allowed) (bs : list bid) (r : res state) : Prop :=
  match r with
  | Ok s' => st_allowed s' = al /\ bsub bs (st_bids s')
  | Err _ _ => True
  end.
Notation keeps s r := (keepsL (st_allowed s) (st_bids s) r).

Definition keepR (s s' : state) : Prop := st_allowed s' = st_allowed s /\ bsub (st_bids s) (st_bids s').

Lemma keepR_same : forall s s', st_allowed s' = st_allowed s -> st_bids s' = st_bids s -> keepR s s'.
Proof. intros s s' Ha Hb. split; [exact Ha | rewrite Hb; apply bsub_refl]. Qed.

Lemma keepR_trans : forall s1 s2 s3, keepR s1 s2 -> keepR s2 s3 -> keepR s1 s3.
Proof. intros s1 s2 s3 [A1 B1] [A2 B2]. split; [congruence | eapply bsub_trans; eassumption]. Qed.

Lemma put_bid_bsub : forall s b b0,
  In b0 (st_bids s) -> b_auction b = b_auction b0 -> b_bidder b = b_bidder b0 ->
  bsub (st_bids s) (st_bids (put_bid s b)).
Proof.
  intros s b b0 Hin Ha Hu. unfold put_bid. sproj. apply bsub_map. intros x Hx.
  destruct (N.eqb (b_auction x) (b_auction b) && N.eqb (b_id x) (b_id b)).
  - exists b0. repeat split; [exact Hin | congruence | congruence].
  - exists x. repeat split; exact Hx.
Qed.

Lemma set_flags_bsub : forall s id m, bsub (st_bids s) (st_bids (set_flags s id m)).
Proof.
  intros s id m. unfold set_flags. sproj. apply bsub_map. intros b Hb.
  destruct (N.eqb (b_auction b) id); exists b; repeat split; exact Hb.
Qed.

(* keeps is a reading of the one walk of BeginBlocker (HookBase): it says nothing of a failure, and a store update
   other than the matched flags leaves both lists alone *)
Lemma keep_reading : reading keepR (fun _ _ _ => True).
Proof.
  constructor.
  - (* rd_trans *) exact keepR_trans.
  - (* rd_pre *) intros; exact I.
  - (* rd_still *) intros s s' St. apply keepR_same; [apply (sl_allowed _ _ St)|apply (sl_bids _ _ St)].
  - (* rd_flags *) intros s id m. split; [reflexivity|apply set_flags_bsub].
  - (* rd_other *) intros; exact I.
Qed.

Lemma keeps_bankop : forall s r, bankop s r -> keeps s r.
Proof. intros s r. exact (bank_res _ _ keep_reading s r). Qed.

Lemma fund_pool_keeps : forall s u cs, keeps s (fund_pool s u cs).
Proof. intros. apply keeps_bankop, fund_pool_bankop. Qed.
Lemma pay_out_keeps : forall s from d us f, keeps s (pay_out s from d us f).
Proof. intros. apply keeps_bankop, pay_out_bankop. Qed.
Lemma call_hook_keeps : forall s kind args, keeps s (call_hook s kind args).
Proof.
  intros s kind args. unfold call_hook.
  destruct (dispatch (st_listeners s) 0 kind args) as [ok cs]. destruct ok; [|exact I].
  apply keepR_same; reflexivity.
Qed.
Lemma keep_hooks : hooks keepR (fun _ _ _ => True).
Proof. exact call_hook_keeps. Qed.

Lemma allocate_keeps : forall s a mi w, keeps s (allocate s a mi w).
Proof. intros. exact (allocate_res _ _ keep_reading s a mi w keep_hooks). Qed.
Lemma refund_selling_keeps : forall s a, keeps s (refund_selling s a).
Proof. intros. apply keeps_bankop, send_bankop. Qed.
Lemma apply_vesting_keeps : forall s a, keeps s (apply_vesting s a).
Proof. intros. exact (apply_vesting_res _ _ keep_reading s a). Qed.
Lemma close_fixed_keeps : forall s a, keeps s (close_fixed s a).
Proof. intros. exact (close_fixed_res _ _ keep_reading s a keep_hooks). Qed.
Lemma close_batch_keeps : forall s orc a, keeps s (close_batch s orc a).
Proof. intros. exact (close_batch_res _ _ keep_reading s orc a keep_hooks). Qed.
Lemma release_loop_keeps : forall vs s a t, keeps s (release_loop s a t vs).
Proof. intros. exact (release_loop_res _ _ keep_reading vs s a t). Qed.
Lemma process_keeps : forall t orc s a, keeps s (process t orc s a).
Proof. intros. exact (process_res _ _ keep_reading t orc s a (fun _ _ => keep_hooks)). Qed.
Lemma begin_block_keeps : forall s t orc, keeps s (begin_block s t orc).
Proof. intros. exact (begin_block_res _ _ keep_reading s t orc (fun _ _ _ _ => keep_hooks)). Qed.

Lemma find_allowed_In : forall s a u e, find_allowed s a u = Some e ->
  In e (st_allowed s) /\ al_auction e = a /\ al_bidder e = u.
Proof.
  intros s a u e H. unfold find_allowed in H. apply find_some in H as [Hin Hk].
  apply key_eqb_eq in Hk as [Ha Hu]. repeat split; assumption.
Qed.

Lemma find_allowed_eq : forall s s' a u, st_allowed s' = st_allowed s -> find_allowed s' a u = find_allowed s a u.
Proof. intros s s' a u H. unfold find_allowed. now rewrite H. Qed.

Theorem gate_add_rejected : forall s, st_switch s = false ->
  forall a ea who max,
    deliver_tx s (MAddAllowed a ea who max) =
    (Rejected (match who with AGood _ _ => E_DISABLED | ABad => E_BASIC end), s).
Proof.
  intros s Hs a ea who max. unfold deliver_tx. destruct who as [up u|]; cbn [check_basic]; [|reflexivity].
  cbn [handle]. rewrite Hs. unfold fail, commit. rewrite with_trace_eta. reflexivity.
Qed.

Definition may_change_allowed (s : state) (o : op) : Prop :=
  match o with
  | OApiAdd _ _ | OApiUpdate _ _ _ | OGenesis => True
  | OTx (MAddAllowed _ _ _ _) => st_switch s = true
  | _ => False
  end.

Lemma block_keepR : forall s o, is_block o = true -> keepR s (snd (step s o)).
Proof.
  intros s o B. destruct (step_block s o B) as [[_ Hb]|[_ (tr & ->)]]; [|apply keepR_same; reflexivity].
  pose proof (begin_block_keeps s (block_time o) (block_orc o)) as K. rewrite Hb in K. exact K.
Qed.

Lemma shape_allowed s o out s' : tx_shape s o out s' ->
  st_allowed s' = st_allowed s \/ (out = Accepted /\ is_allow_op o = true).
Proof. intros Sh. shape_cases Sh; try (left; reflexivity). right. split; [reflexivity|exact A]. Qed.

Theorem allowed_frame_step : forall s o,
  ~ may_change_allowed s o -> st_allowed (snd (step s o)) = st_allowed s.
Proof.
  intros s o Hn. destruct (is_block o) eqn:Blk.
  - apply block_keepR, Blk.
  - assert (G : o <> OGenesis) by (intros ->; apply Hn; exact I).
    destruct (shape_allowed _ _ _ _ (step_shape s o Blk G)) as [E|[Acc A]]; [exact E|]. exfalso.
    destruct o as [[]| | | | | | |]; try discriminate A; try (apply Hn; exact I).
    cbn in Hn. destruct (st_switch s) eqn:Sw; [apply Hn; reflexivity|].
    cbn [step] in Acc. rewrite (gate_add_rejected s Sw) in Acc. destruct who; discriminate Acc.
Qed.

Theorem gate_tx : forall s, st_switch s = false ->
  forall m, st_allowed (snd (deliver_tx s m)) = st_allowed s.
Proof.
  intros s Hs m. apply (allowed_frame_step s (OTx m)). destruct m; cbn; try tauto. rewrite Hs. discriminate.
Qed.

Lemma may_change_dec : forall s o, may_change_allowed s o \/ ~ may_change_allowed s o.
Proof.
  intros s o. destruct o as [m| | | | | | |]; cbn; try tauto.
  destruct m; cbn; try tauto. destruct (st_switch s); [left; reflexivity | right; discriminate].
Qed.

Definition user_op (o : op) : Prop :=
  match o with
  | OApiAdd _ _ | OApiUpdate _ _ _ | OGenesis | OTx (MAddAllowed _ _ _ _) => False
  | _ => True
  end.

Lemma user_op_frame : forall s o, user_op o -> ~ may_change_allowed s o.
Proof.
  intros s o H. destruct o as [m| | | | | | |]; cbn in *; try tauto.
  destruct m; cbn in *; tauto.
Qed.

Theorem allowed_frame_run : forall ops s, Forall user_op ops -> st_allowed (run s ops) = st_allowed s.
Proof.
  intros ops s H. apply (run_ind user_op (fun s' => st_allowed s' = st_allowed s)); [|exact H|reflexivity].
  intros s1 o Ho E. rewrite <- E. apply allowed_frame_step, user_op_frame, Ho.
Qed.

Theorem bid_requires_entry : forall s who id bt price coin,
  fst (step s (OTx (MPlaceBid who id bt price coin))) = Accepted ->
  exists up u, who = AGood up u /\ find_allowed s id u <> None /\
    exists b, st_bids (snd (step s (OTx (MPlaceBid who id bt price coin)))) = st_bids s ++ [b]
              /\ b_bidder b = u /\ b_auction b = id.
Proof.
  intros s who id bt price coin H.
  destruct (tx_place_inv (step_shape_acc _ _ H)) as (up & u & t & p & d & amt & a & -> & _ & _ & G & ->).
  exists up, u. split; [reflexivity|]. split; [exact (pl_entry G)|].
  exists (stored_bid a (new_bid s u id t p d amt)). repeat split.
Qed.

(* J5.  InvDefs.bids_allowed has the same body (this file stands below InvDefs and does not import it); InvAll passes
   one for the other by conversion. *)
Definition bids_allowed (s : state) : Prop :=
  forall b, In b (st_bids s) -> find_allowed s (b_auction b) (b_bidder b) <> None.

(* what one step guarantees: no entry disappears, and every bid of the post-state either has
   the key of an old bid or an entry in the pre-state *)
Definition allow_rel (s s' : state) : Prop :=
  apersist s s' /\
  forall b', In b' (st_bids s') ->
    (exists b, In b (st_bids s) /\ b_auction b = b_auction b' /\ b_bidder b = b_bidder b')
    \/ find_allowed s (b_auction b') (b_bidder b') <> None.

Lemma allow_rel_entry : forall s s' b', allow_rel s s' -> bids_allowed s -> In b' (st_bids s') ->
  find_allowed s (b_auction b') (b_bidder b') <> None.
Proof.
  intros s s' b' [_ Hb] Hinv Hb'. destruct (Hb b' Hb') as [[b [Hin [Ha Hu]]]|H]; [|exact H].
  rewrite <- Ha, <- Hu. apply Hinv. exact Hin.
Qed.

Lemma allow_rel_inv : forall s s', allow_rel s s' -> bids_allowed s -> bids_allowed s'.
Proof. intros s s' R Hinv b' Hb'. apply (proj1 R). exact (allow_rel_entry s s' b' R Hinv Hb'). Qed.

Lemma allow_rel_keeps : forall s s', keepR s s' -> allow_rel s s'.
Proof.
  intros s s' [Ha Hb]. split; [apply apersist_eq; exact Ha|].
  intros b' Hb'. left. apply Hb. exact Hb'.
Qed.

Lemma allow_rel_same_bids : forall s s', apersist s s' -> st_bids s' = st_bids s -> allow_rel s s'.
Proof.
  intros s s' Hp Hb. split; [exact Hp|].
  intros b' Hb'. left. exists b'. rewrite Hb in Hb'. repeat split; exact Hb'.
Qed.

Lemma allow_rel_same : forall s s', st_allowed s' = st_allowed s -> st_bids s' = st_bids s -> allow_rel s s'.
Proof. intros s s' Ha Hb. apply allow_rel_same_bids; [apply apersist_eq; exact Ha | exact Hb]. Qed.

Lemma keeps_rel : forall s r s', keeps s r -> r = Ok s' -> allow_rel s s'.
Proof. intros s r s' K ->. apply allow_rel_keeps. exact K. Qed.

Lemma fold_reput_find : forall l s0 a u,
  (find_allowed s0 a u <> None \/ exists x, In x l /\ al_auction x = a /\ al_bidder x = u) ->
  find_allowed (fold_left reput l s0) a u <> None.
Proof.
  induction l as [|x r IH]; intros s0 a u H; cbn [fold_left].
  - destruct H as [H|[x [[] _]]]. exact H.
  - apply IH. destruct H as [H|[y [[<-|Hy] [Ha Hu]]]].
    + left. apply put_allowed_persist. exact H.
    + left. unfold reput. rewrite find_put_allowed, Ha, Hu, !N.eqb_refl. discriminate.
    + right. exists y. repeat split; assumption.
Qed.

Lemma fold_reput_exact : forall l s0 a u e,
  al_auction e = a -> al_bidder e = u ->
  (forall x, In x l -> al_auction x = a -> al_bidder x = u -> x = e) ->
  (find_allowed s0 a u = Some e \/ In e l) ->
  find_allowed (fold_left reput l s0) a u = Some e.
Proof.
  induction l as [|x r IH]; intros s0 a u e Ha Hu Huniq H; cbn [fold_left].
  - destruct H as [H|[]]. exact H.
  - apply IH; [exact Ha | exact Hu | intros y Hy; apply Huniq; right; exact Hy |].
    unfold reput. rewrite find_put_allowed.
    destruct (N.eqb a (al_auction x) && N.eqb u (al_bidder x)) eqn:Hk.
    + apply key_eqb_eq in Hk as [Hka Hku].
      assert (Hx : x = e) by (apply Huniq; [left; reflexivity | congruence | congruence]).
      left. subst x. destruct e; reflexivity.
    + destruct H as [H|[Hx|Hr]]; [left; exact H | | right; exact Hr].
      subst x. rewrite Ha, Hu, !N.eqb_refl in Hk. discriminate.
Qed.

Lemma genesis_rel : forall s v s', genesis_roundtrip s = Some (v, s') -> allow_rel s s'.
Proof.
  intros s v s' H. unfold genesis_roundtrip in H.
  destruct (import s (export s)) as [s2|] eqn:Hi; [|discriminate]. injection H as _ <-.
  rewrite (import_inv _ _ _ Hi).
  assert (Hp : apersist s (imported s (export s))).
  { intros a u Hf. apply fold_reput_find. right.
    destruct (find_allowed s a u) as [e|] eqn:He; [|contradiction].
    apply find_allowed_In in He as [Hin [Hea Heu]]. exists e. split; [apply sort_by_in; exact Hin | split; assumption]. }
  split; [exact Hp|].
  intros b' Hb'. apply in_number in Hb'. destruct Hb' as (b & id & Hin & ->).
  left. exists b. apply sort_by_in in Hin. repeat split. exact Hin.
Qed.

(* every operation but blocks and GENESIS; shape_cases names the premises: BA the entry of the new bid's bidder, Fb the
   modified bid's lookup, KP the entries the API keeps *)
Lemma shape_allow_rel : forall s o out s', tx_shape s o out s' -> allow_rel s s'.
Proof.
  intros s o out s' Sh. shape_cases Sh; try (apply allow_rel_same; reflexivity).
  (* SPlace, the three types of bid *)
  1-3: split; [apply apersist_eq; reflexivity|]; intros b' Hb'; sproj_in Hb';
    apply in_app_or in Hb' as [Hin|[<-|[]]]; [left; exists b'; repeat split; exact Hin|right; exact BA].
  - (* SModify *) apply allow_rel_keeps. split; [reflexivity|]. apply find_bid_some in Fb as (Hin & _ & _).
    match goal with |- bsub _ (st_bids (put_bid ?x _)) => exact (put_bid_bsub x (set_b_terms b0 p amt) b0 Hin eq_refl eq_refl) end.
  - (* SAllowed *) apply allow_rel_same_bids; [exact KP|reflexivity].
Qed.

Theorem allow_rel_step : forall s o, allow_rel s (snd (step s o)).
Proof.
  intros s o. destruct (is_block o) eqn:Blk.
  - apply allow_rel_keeps, block_keepR, Blk.
  - destruct (op_eq_genesis_dec o) as [->|G]; [|exact (shape_allow_rel _ _ _ _ (step_shape s o Blk G))].
    cbn [step]. destruct (genesis_roundtrip s) as [[v s']|] eqn:Hg; cbn [snd]; [|apply allow_rel_same; reflexivity].
    eapply genesis_rel; exact Hg.
Qed.

Theorem bids_allowed_step : forall s o, bids_allowed s -> bids_allowed (snd (step s o)).
Proof. intros s o. apply allow_rel_inv. apply allow_rel_step. Qed.

Theorem bids_allowed_run : forall ops s0, bids_allowed s0 -> bids_allowed (run s0 ops).
Proof. apply run_ind_all. exact bids_allowed_step. Qed.

Lemma no_genesis_run : forall ops s0, bids_allowed s0 -> Forall (fun o => o <> OGenesis) ops -> bids_allowed (run s0 ops).
Proof. intros ops s0 H _. apply bids_allowed_run. exact H. Qed.

Definition touches_cap (a : N) (o : op) : Prop :=
  match o with
  | OApiAdd a' _ | OApiUpdate a' _ _ | OTx (MAddAllowed a' _ _ _) => a' = a
  | OGenesis => True
  | _ => False
  end.

(* K : the API on auction id keeps the entries of every other auction; T0 A : id is the target of o, an allow-list operation *)
Lemma shape_cap : forall s o out s' a u, tx_shape s o out s' ->
  (is_allow_op o = true -> target s o <> Some a) -> find_allowed s' a u = find_allowed s a u.
Proof.
  intros s o out s' a v Sh T. shape_cases Sh; try reflexivity.
  unfold find_allowed. rewrite !(find_filter_and (fun x => N.eqb (al_auction x) a)). sproj.
  rewrite (K a); [reflexivity|]. intros ->. exact (T A T0).
Qed.

Theorem cap_unchanged : forall s o a u,
  ~ touches_cap a o -> find_allowed (snd (step s o)) a u = find_allowed s a u.
Proof.
  intros s o a u Hn. destruct (is_block o) eqn:Blk.
  - apply find_allowed_eq, allowed_frame_step. destruct o; try discriminate Blk; intros [].
  - assert (G : o <> OGenesis) by (intros ->; apply Hn; exact I).
    apply (shape_cap _ _ _ _ a u (step_shape s o Blk G)). intros A T. apply Hn.
    destruct o as [[]| | | | | | |]; try discriminate A; cbn in T |- *; congruence.
Qed.

(* keys determine entries; then the genesis export/import re-creates every entry exactly *)
Definition unique_keys (s : state) : Prop :=
  forall x y, In x (st_allowed s) -> In y (st_allowed s) ->
    al_auction x = al_auction y -> al_bidder x = al_bidder y -> x = y.

Theorem genesis_entries_exact : forall s a u e,
  unique_keys s -> find_allowed s a u = Some e ->
  find_allowed (snd (step s OGenesis)) a u = Some e.
Proof.
  intros s a u e Hu Hf. cbn [step].
  unfold genesis_roundtrip. destruct (import s (export s)) as [s'|] eqn:Hi; cbn [snd]; [|exact Hf].
  rewrite (import_inv _ _ _ Hi).
  apply find_allowed_In in Hf as [Hin [Hea Heu]].
  apply fold_reput_exact; [exact Hea | exact Heu | | right; apply sort_by_in; exact Hin].
  intros x Hx Hxa Hxu. apply sort_by_in in Hx. apply Hu; [exact Hx | exact Hin | congruence | congruence].
Qed.


(* Block processing, one auction at a time, under the invariant.  What a settlement owes is within what the records
   say (settles_dues), so its payments go through (dues_pay): with chosen_total and chosen_covered this is why a due
   auction is processed successfully unless the hook vetoes, given a valid order of the bids (C07).  And the state each
   action leaves (BlockWalk.act_state) keeps the bank non-negative and the remainder invariant J6 and changes every
   escrow excess exactly as C01 says (act_kept, process_kept); the escrow invariant J8 follows from the last. *)
From Coq Require Import ZArith NArith List Bool Lia.
From FR Require Import Types Match Step Spec.
From FR.Proofs Require Import ListFacts ResFacts InvDefs FrameFacts BlockFacts BlockWalk InvStaticBase.
From FR.Proofs Require EqbFacts ListFacts DecFacts MatchBase MatchDemand MatchBatch MatchConseq VestingFacts VestingInv InvStaticUpd.
From FR.Proofs Require Import EscrowBase ExcessDefs EscrowTx VestingRelease LedgerSettle.
Import ListNotations.
Open Scope Z_scope.

Lemma sum_by_bidder (f : bid -> Z) bs :
  sumZ (map (fun u => sumZ (map f (filter (fun b => N.eqb (b_bidder b) u) bs))) (bidders_of bs)) = sumZ (map f bs).
Proof.
  apply (MatchBase.keyed_sum_total b_bidder f); [apply MatchBase.bidders_of_nodup|].
  intros b Hb. apply MatchBase.bidders_of_in. eauto.
Qed.

Lemma bids_of_set_flags_map (f : bid -> Z) s id m j :
  (forall b x, f (set_b_matched b x) = f b) ->
  map f (bids_of (set_flags s id m) j) = map f (bids_of s j).
Proof.
  intros Hf. rewrite bids_of_set_flags, map_map. apply map_ext. intros b.
  unfold flag_fn. destruct (N.eqb (b_auction b) id); [apply Hf|reflexivity].
Qed.

Lemma set_flags_fields s id m :
  st_auctions (set_flags s id m) = st_auctions s /\ st_vqs (set_flags s id m) = st_vqs s
  /\ st_bal (set_flags s id m) = st_bal s /\ st_listeners (set_flags s id m) = st_listeners s
  /\ st_allowed (set_flags s id m) = st_allowed s /\ st_params (set_flags s id m) = st_params s.
Proof. repeat split. Qed.

Lemma Inv_find_wf s a : Inv s -> find_auction s (a_id a) = Some a -> auction_wf a.
Proof.
  intros I F. destruct (find_auction_some _ _ _ F) as [Hin _].
  pose proof (inv_auctions _ I) as H. unfold auctions_wf in H.
  rewrite Forall_forall in H. now apply H.
Qed.

Lemma allowed_of_in s id x : In x (allowed_of s id) <-> In x (st_allowed s) /\ al_auction x = id.
Proof. unfold allowed_of. rewrite filter_In, N.eqb_eq. reflexivity. Qed.

Lemma NoDup_map_filter_pair (l : list allowed) id :
  NoDup (map (fun x => (al_auction x, al_bidder x)) l) ->
  NoDup (map al_bidder (filter (fun x => N.eqb (al_auction x) id) l)).
Proof.
  intros H. apply (NoDup_map_inv (pair id)). rewrite map_map.
  rewrite (map_ext_in _ (fun x => (al_auction x, al_bidder x))); [apply ListFacts.NoDup_map_filter, H|].
  intros x Hx. apply filter_In in Hx.
  destruct Hx as [_ E]. apply N.eqb_eq in E. now rewrite E.
Qed.

Lemma Inv_book_wf s id : Inv s -> MatchDemand.book_wf (bids_of s id) (allowed_of s id).
Proof.
  intros I. destruct (inv_bids _ I) as [Hbw _]. rewrite Forall_forall in Hbw.
  destruct (inv_allowed _ I) as [Hpos Hnd]. rewrite Forall_forall in Hpos.
  split.
  - intros b Hb. apply bids_of_in in Hb. apply (bwf_price _ _ (Hbw b (proj1 Hb))).
  - intros b Hb. apply bids_of_in in Hb. apply (bwf_amt _ _ (Hbw b (proj1 Hb))).
  - intros b Hb. apply bids_of_in in Hb. destruct Hb as [Hb Ha].
    pose proof (inv_bids_allowed _ I b Hb) as Hal. rewrite Ha in Hal.
    destruct (find_allowed s id (b_bidder b)) as [x|] eqn:F; [|congruence].
    unfold find_allowed in F. apply find_some in F. destruct F as [Hin Hk].
    apply andb_true_iff in Hk. destruct Hk as [K1 K2]. apply N.eqb_eq in K1, K2.
    exists x. split; [apply allowed_of_in; now split|exact K2].
  - unfold allowed_of. apply NoDup_map_filter_pair. exact Hnd.
  - intros x Hx. apply allowed_of_in in Hx. apply Hpos. apply Hx.
Qed.

Lemma Inv_denoms_wf s a : Inv s -> find_auction s (a_id a) = Some a -> a_type a = Batch ->
  MatchConseq.denoms_wf (a_pay_denom a) (bids_of s (a_id a)).
Proof.
  intros I Fa Hty b Hb. apply bids_of_in in Hb. destruct Hb as [Hb Ha].
  destruct (inv_bids _ I) as [Hbw _]. rewrite Forall_forall in Hbw.
  destruct (bwf_auction _ _ (Hbw b Hb)) as (a0 & Fa0 & Hm & _). rewrite Ha, Fa in Fa0. injection Fa0 as <-.
  rewrite Hty in Hm. destruct Hm as [[[Ht Hd]|[Ht Hd]] _]; [left; now split|right; split; [exact Ht|]].
  rewrite Hd. apply (awf_denoms _ (Inv_find_wf s a I Fa)).
Qed.

Lemma started_no_vqs s a : Inv s -> find_auction s (a_id a) = Some a -> a_status a = Started -> vqs_of s (a_id a) = [].
Proof.
  intros I Fa Hst. apply (VestingInv.vqs_wf_no_queue s _ a (inv_vqs _ I) Fa), (VestingInv.not_vest_status _ _ Hst); discriminate.
Qed.

Lemma settle_gen_no_veto s a mi wr s' : settle_gen s a mi wr = Ok s' -> no_veto s H_BeforeAllocated = true.
Proof. intros H. apply settle_gen_iff in H. apply H. Qed.

Lemma sum_unreleased_split a R vs :
  sumZ (map v_amt (filter (fun v => negb (v_released v)) (split a R R vs))) = sumZ (map v_amt (split a R R vs)).
Proof.
  f_equal. f_equal. apply ListFacts.filter_all_true. intros v Hv.
  pose proof (DecFacts.split_fields a R vs R) as Hf.
  rewrite Forall_forall in Hf. destruct (Hf v Hv) as (Hr & _). now rewrite Hr.
Qed.

(* what a fixed price auction allots is nonnegative and within the offered amount: by J6 the quantities of the
   accepted bids add up to what was sold *)
Lemma fixed_alloc_bounds s a :
  Inv s -> find_auction s (a_id a) = Some a -> a_status a = Started -> a_type a = FixedPrice ->
  (forall u, 0 <= mi_alloc (calc_fixed a (bids_of s (a_id a))) u)
  /\ total_of (mi_bidders (calc_fixed a (bids_of s (a_id a)))) (mi_alloc (calc_fixed a (bids_of s (a_id a)))) <= a_sell_amt a.
Proof.
  intros I Fa Hst Hty.
  pose proof (Inv_book_wf s (a_id a) I) as BW.
  pose proof (Inv_find_wf s a I Fa) as AW.
  pose proof (find_auction_some _ _ _ Fa) as [Hin _].
  split.
  - intros u. cbn [mi_alloc calc_fixed]. apply ListFacts.sumZ_map_nonneg. intros b Hb.
    apply filter_In in Hb. destruct Hb as [Hb _].
    apply DecFacts.sell_amount_nonneg; [apply (MatchDemand.wf_amt _ _ BW b Hb)|apply (MatchDemand.wf_price _ _ BW b Hb)].
  - unfold total_of. cbn [mi_bidders mi_alloc calc_fixed]. rewrite (sum_by_bidder (sell_amount (a_pay_denom a))).
    pose proof (inv_remaining _ I a Hin Hty) as R. rewrite Hst in R. cbn [status_eqb] in R.
    destruct (awf_fixed _ AW Hty) as (_ & _ & _ & _ & Hr). lia.
Qed.

Lemma reserved_sum pd bs : sumZ (map (reserved_of pd bs) (bidders_of bs)) = sumZ (map (pay_amount pd) bs).
Proof. unfold reserved_of. apply (sum_by_bidder (pay_amount pd) bs). Qed.

Lemma settles_dues t orc s a mi wr :
  Inv s -> find_auction s (a_id a) = Some a -> a_status a = Started -> settles_with t orc s a mi wr -> dues s a mi wr.
Proof.
  intros I Fa St [_ Hw].
  pose proof (Inv_book_wf s (a_id a) I) as BW.
  pose proof (Inv_find_wf s a I Fa) as AW.
  destruct (escrow_inv_own s (a_id a) a (inv_escrow _ I) Fa) as (HeS & HeP & _).
  rewrite St in HeS. specialize (HeS eq_refl). specialize (HeP St).
  set (bs := bids_of s (a_id a)) in *. set (pd := a_pay_denom a) in *.
  assert (Hpa : forall b, In b bs -> 0 <= pay_amount pd b).
  { intros b Hb. apply MatchConseq.pay_amount_nonneg.
    - pose proof (MatchDemand.wf_amt _ _ BW b Hb). lia.
    - pose proof (MatchDemand.wf_price _ _ BW b Hb). lia. }
  assert (Hres : forall u, 0 <= reserved_of pd bs u) by (intros u; apply MatchConseq.reserved_of_nonneg, Hpa).
  subst bs pd.
  destruct Hw as [(Ty & -> & ->)|(Ty & -> & Dec & order & HV & HC)].
  - (* fixed price *)
    destruct (fixed_alloc_bounds s a I Fa St Ty) as [Hal Hsum].
    split.
    + (* du_bidders *) reflexivity.
    + (* du_sorted *) apply MatchBase.bidders_of_sorted.
    + (* du_alloc *) exact Hal.
    + (* du_alloc_sum *) exact Hsum.
    + (* du_unsold *) unfold unsold_of. lia.
    + (* du_refund *) intros u. cbn [mi_refund calc_fixed].
      specialize (Hres u). lia.
    + (* du_proceeds *) unfold proceeds_of. cbn [mi_bidders calc_fixed].
      rewrite (ListFacts.sumZ_map_ext _ (reserved_of (a_pay_denom a) (bids_of s (a_id a)))) by (intros; lia). rewrite reserved_sum. lia.
    + (* du_fixed *) intros _ u. split; reflexivity.
    + (* du_batch *) discriminate.
  - (* batch *)
    pose proof (Inv_denoms_wf s a I Fa Ty) as DW.
    assert (Hsup : 0 <= a_sell_amt a) by (pose proof (awf_amt _ AW); lia).
    destruct (MatchConseq.batch_alloc_bounds a _ _ order _ mi BW HV Hsup HC) as (Ha1 & _ & Ha3 & Ha4).
    destruct (MatchConseq.batch_refund_facts a _ _ order _ mi BW HV Hsup DW HC) as (Hr1 & _ & Hr3 & _).
    pose proof (proj1 (MatchBatch.calc_batch_result a _ _ order _ mi BW HV Hsup HC)) as Hmib.
    assert (Hsum : total_of (mi_bidders mi) (mi_alloc mi) <= a_sell_amt a).
    { unfold total_of. rewrite Hmib, Ha3. lia. }
    split.
    + (* du_bidders *) exact Hmib.
    + (* du_sorted *) rewrite Hmib. apply MatchBase.bidders_of_sorted.
    + (* du_alloc *) intros u. apply Ha1.
    + (* du_alloc_sum *) exact Hsum.
    + (* du_unsold *) unfold unsold_of. lia.
    + (* du_refund *) intros u. apply Hr1.
    + (* du_proceeds *) unfold proceeds_of, total_of. rewrite sumZ_map_sub, Hmib, reserved_sum. lia.
    + (* du_fixed *) discriminate.
    + (* du_batch *) intros _ u. apply Hr3.
Qed.

(* why a settlement cannot fail: what the records owe covers what is paid out *)
Lemma dues_pay s a mi wr : dues s a mi wr -> Ledger.pays (st_bal s) (settle_xfers s a mi wr).
Proof.
  intros D. pose proof (du_alloc _ _ _ _ D) as Da. pose proof (du_alloc_sum _ _ _ _ D) as Ds.
  pose proof (du_unsold _ _ _ _ D) as Du. pose proof (du_refund _ _ _ _ D) as Dr. pose proof (du_proceeds _ _ _ _ D) as Dp.
  apply pays_settle_xfers.
  split; [intros u _; apply Da|]. split; [lia|]. split; [intros _ u _; apply Dr|].
  assert (0 <= sumZ (map (fun u => reserved_of (a_pay_denom a) (bids_of s (a_id a)) u - (if wr then mi_refund mi u else 0))
                         (mi_bidders mi))); [|lia].
  apply ListFacts.sumZ_map_nonneg. intros u _. specialize (Dr u). destruct wr; lia.
Qed.

Lemma sum_unreleased_after id t : forall vs,
  (forall v, In v vs -> v_auction v = id) ->
  sumZ (map v_amt (filter (fun v => negb (v_released v)) (map (VestingFacts.release_vq id t) vs)))
  = sumZ (map v_amt (filter (fun v => negb (v_released v)) vs)) - sumZ (map v_amt (VestingFacts.due_of t vs)).
Proof. intros vs Hid. exact (proj2 (proj2 (VestingFacts.release_sums id t vs Hid))). Qed.

Lemma Inv_vqs_terms s a v :
  Inv s -> find_auction s (a_id a) = Some a -> In v (vqs_of s (a_id a)) -> 0 <= v_amt v /\ v_denom v = a_pay_denom a.
Proof.
  intros I Fa Hv. pose proof (VestingInv.vqs_wf_own s _ a v (inv_vqs _ I) Fa Hv) as O.
  split; [exact (VestingInv.vo_amt O)|exact (VestingInv.vo_denom O)].
Qed.

(* a release goes through: the vesting escrow covers the unreleased instalments (J8), which are in the paying coin *)
Lemma release_live s a t :
  Inv s -> find_auction s (a_id a) = Some a -> a_status a = VestingS -> act_pre t s a ARelease.
Proof.
  intros I Fa Hst. destruct (escrow_inv_own s (a_id a) a (inv_escrow _ I) Fa) as (_ & _ & Hfund).
  split; [exact Logic.I|]. exact (rel_xfers_funded s a t (fun v => Inv_vqs_terms s a v I Fa) (Hfund Hst)).
Qed.

(* Why block processing cannot fail.  Under the invariant some action is chosen for a stored auction, given a valid
   order of the bids where a batch auction closes; and the condition of the chosen action holds, unless a listener vetoes
   the allocation hook of a settlement: what the records owe covers what is paid out. *)
(* the one thing asked of the oracle: if a is a batch auction due to close, orc gives a valid sweep order for it.
   InvAll.orc_ok is this of every stored auction, InvDefs.oracle_ok the same with the oracle entry spelled out
   (InvAll.oracle_ok_orc_ok); InvAll.process_live has it written out. *)
Definition valid_for (s : state) (t : Z) (orc : list (N * list N)) (a : auction) : Prop :=
  a_type a = Batch -> a_status a = Started -> last_end a <= t ->
  exists order, valid_order (bids_of s (a_id a)) (oracle_ids orc (a_id a)) = Some order.

Lemma chosen_total t orc s a :
  Inv s -> find_auction s (a_id a) = Some a -> valid_for s t orc a -> exists x, chosen t orc s a x.
Proof.
  intros I Fa Horc. destruct (a_status a) eqn:St.
  - destruct (Z.le_gt_cases (a_start a) t) as [L|L]; [exists AOpen; apply ChOpen; assumption|].
    exists AIdle. apply ChIdle. rewrite St. lia.
  - destruct (Z.le_gt_cases (last_end a) t) as [L|L]; [|exists AIdle; apply ChIdle; rewrite St; lia].
    destruct (a_type a) eqn:Ty; [eexists; apply ChFixed; assumption|].
    destruct (Horc Ty St L) as [order HV].
    assert (Hsup : 0 <= a_sell_amt a) by (pose proof (awf_amt _ (Inv_find_wf s a I Fa)); lia).
    destruct (MatchBatch.calc_batch_full a _ _ order _ (Inv_book_wf s (a_id a) I) HV Hsup) as (mi & HC & _).
    eexists. apply (ChBatch t orc s a mi St L Ty). exists order. auto.
  - exists ARelease. apply ChRelease, St.
  - exists AIdle. apply ChIdle. rewrite St. constructor.
  - exists AIdle. apply ChIdle. rewrite St. constructor.
Qed.

Theorem chosen_covered t orc s a x :
  Inv s -> find_auction s (a_id a) = Some a -> chosen t orc s a x ->
  (forall mi wr, x = ASettle mi wr -> no_veto s H_BeforeAllocated = true) -> act_pre t s a x.
Proof.
  intros I Fa C Hnv. destruct x as [| |mi|mi wr|]; try (split; exact Logic.I).
  - split; [exact (Hnv mi wr eq_refl)|]. apply chosen_settle_iff in C. destruct C as [St W].
    exact (dues_pay s a mi wr (settles_dues t orc s a mi wr I Fa St W)).
  - exact (release_live s a t I Fa (chosen_status t orc s a ARelease C)).
Qed.

(* And the state the action leaves keeps the books.  What the books read of it at the auction: the record act_record,
   which has the terms of a; the bids of s, whose flags do not show; every balance of s plus the net of act_xfers
   (act_ledger); the queue, by action. *)
Lemma act_bids_map (f : bid -> Z) t s a x j :
  (forall b m, f (set_b_matched b m) = f b) -> map f (bids_of (act_state t s a x) j) = map f (bids_of s j).
Proof.
  intros Hf. rewrite act_state_eq. unfold bids_of at 1. cbn [st_bids]. fold (bids_of (act_flags s a x) j).
  destruct x as [| |mi|mi [|]|]; cbn [act_flags]; try reflexivity; apply bids_of_set_flags_map, Hf.
Qed.

Lemma act_record_terms t s a x :
  a_sell_denom (act_record t s a x) = a_sell_denom a /\ a_sell_amt (act_record t s a x) = a_sell_amt a
  /\ a_pay_denom (act_record t s a x) = a_pay_denom a /\ a_type (act_record t s a x) = a_type a
  /\ a_remaining (act_record t s a x) = a_remaining a.
Proof. destruct x as [| |mi|mi [|]|]; cbn [act_record settle_as]; try destruct (last_due _ _); repeat split. Qed.

(* an action cancels nothing *)
Lemma chosen_not_cancels t orc s a x :
  chosen t orc s a x -> status_eqb (a_status (act_record t s a x)) Cancelled = status_eqb (a_status a) Cancelled.
Proof.
  assert (S : forall a0, status_eqb (a_status (set_status a0 (settled_st a))) Cancelled = false)
    by (intros a0; destruct (settled_st_cases a) as [E|E]; cbn [a_status set_status]; rewrite E; reflexivity).
  intros C. destruct C as [C|St L|St L Ty|mi St L Ty M|St]; try destruct (decision s a mi); cbn [act_record];
    try destruct (last_due _ _); rewrite ?S; unfold extended; cbn [a_status set_status set_ends set_matched_price];
    rewrite ?St; reflexivity.
Qed.

Theorem act_kept t orc s a x :
  Inv s -> find_auction s (a_id a) = Some a -> chosen t orc s a x -> act_pre t s a x -> books_kept s (act_state t s a x).
Proof.
  intros I Fa C P. pose proof (act_find t s a x Fa) as Fa'. pose proof (act_ledger t s a x P) as L.
  destruct (act_record_terms t s a x) as (Hsd & Hsa & Hpd & Hty & Hrem).
  pose proof (find_auction_some _ _ _ Fa) as [Hin _].
  apply (books_kept_frame (a_id a) s _ _ (inv_remaining _ I) (act_frame t s a x) Fa').
  - intros y d. rewrite (Ledger.lb_bal _ _ _ L). exact (Ledger.pays_nonneg _ _ (Inv_bal_ok s I) (proj2 P) y d).
  - exact (ids_ok_glob _ _ (pe_glob _ _ _ (act_eff t s a x)) (ids_seq_ids_ok s (inv_ids _ I))).
  - (* J6: an action cancels nothing, and the flags do not show in what is sold *)
    intros Hxt. rewrite Hty in Hxt. pose proof (inv_remaining _ I a Hin Hxt) as R.
    rewrite Hrem, Hsa, Hpd, (act_bids_map (sell_amount (a_pay_denom a)) t s a x (a_id a)) by reflexivity.
    rewrite (chosen_not_cancels t orc s a x C). exact R.
  - intros r d. unfold excess.
    rewrite (sweepsP_some _ _ r (a_id a) d a _ Fa Fa'), (Ledger.ledger_bal _ _ _ _ _ L).
    rewrite (owed_some _ r _ d _ Fa'), (owed_some _ r _ d a Fa).
    rewrite Hsd, Hsa, Hpd, (act_bids_map (pay_amount (a_pay_denom a)) t s a x (a_id a)) by reflexivity.
    pose proof (chosen_status t orc s a x C) as St. destruct x as [| |mi|mi wr|]; cbn [act_record act_xfers act_state].
    + (* idle *) rewrite Ledger.net_nil.
      destruct r; destruct (a_status a); cbn [is_open status_eqb orb negb andb]; rewrite ?andb_false_r, ?andb_true_r;
        try destruct (N.eqb d _); lia.
    + (* open: a waiting auction has no bids (J11), so the paying escrow owes nothing yet *)
      rewrite Ledger.net_nil, St, (fresh_waiting s (inv_fresh _ I) a Hin (or_introl St)).
      change (vqs_of (put_auction s (set_status a Started)) (a_id a)) with (vqs_of s (a_id a)).
      destruct r; cbn [a_status set_status is_open status_eqb orb negb andb map]; rewrite ?andb_false_r, ?andb_true_r;
        try destruct (N.eqb d _); change (sumZ []) with 0; lia.
    + (* another round *) rewrite Ledger.net_nil.
      change (vqs_of (put_auction (set_flags s (a_id a) (mi_matched mi)) (extended s a mi)) (a_id a)) with (vqs_of s (a_id a)).
      unfold extended. cbn [a_status set_ends set_matched_price]. rewrite St.
      destruct r; cbn [is_open status_eqb orb negb andb]; rewrite ?andb_false_r, ?andb_true_r; try destruct (N.eqb d _); lia.
    + (* settled: both escrows are sent on whole; the vesting escrow, empty of instalments before (J7), owes the proceeds *)
      rewrite net_settle_esc, settled_own_vqs, (started_no_vqs s a I Fa St), St. cbn [app a_status set_status].
      unfold settled_st, vest_dest, new_vqs, ind. rewrite (N.eqb_sym (a_sell_denom a)), (N.eqb_sym (a_pay_denom a)).
      destruct (a_scheds a) as [|v vs] eqn:Esch;
        cbn [is_open status_eqb orb negb andb addr_eqb]; rewrite ?andb_false_r, ?andb_true_r;
        [cbn [map filter]; change (sumZ []) with 0
        |rewrite N.eqb_refl, <- Esch, sum_unreleased_split, (DecFacts.split_sum a _ (a_scheds a) _)
           by (rewrite Esch; discriminate)];
        destruct r; cbn [role_eqb andb];
          destruct (N.eqb_spec d (a_sell_denom a)) as [E1|E1], (N.eqb_spec d (a_pay_denom a)) as [E2|E2];
          rewrite <- ?E1, <- ?E2; lia.
    + (* released: what goes out of the vesting escrow is what stops being owed *)
      pose proof (fun v => Inv_vqs_terms s a v I Fa) as Hq.
      rewrite (net_rel_xfers_esc a t (a_pay_denom a) _ r d (fun v Hv _ => proj2 (Hq v Hv))).
      rewrite (VestingFacts.released_vqs_of s a t _ (VestingInv.vqs_wf_nodup s (inv_vqs _ I))), N.eqb_refl, last_due_eq, St.
      set (vs := vqs_of s (a_id a)).
      destruct (last_due_rec t vs) eqn:Ld; cbn [a_status set_status]; rewrite ?St;
        destruct r; cbn [role_eqb is_open status_eqb orb negb andb ind]; rewrite ?andb_false_r, ?andb_true_r; try lia;
        destruct (N.eqb d (a_pay_denom a)); cbn [ind]; try lia.
      * (* the last instalment goes out, the auction finishes: the queue is sorted by time, so every unreleased
           instalment is due *)
        pose proof (VestingInv.vqs_wf_sorted s a (inv_vqs _ I) Fa (awf_scheds _ (Inv_find_wf s a I Fa))) as HS.
        assert (Heq : sumZ (map v_amt (VestingFacts.due_of t vs))
                      = sumZ (map v_amt (filter (fun v => negb (v_released v)) vs))); [|lia].
        unfold VestingFacts.due_of. f_equal. f_equal. apply filter_ext_in. intros y Hy. unfold vq_due.
        pose proof (VestingInv.last_due_all_due t vs HS Ld y Hy) as Hle. apply Z.leb_le in Hle. rewrite Hle. reflexivity.
      * rewrite (sum_unreleased_after (a_id a) t vs) by (intros v Hv; apply VestingInv.vqs_of_in in Hv; apply Hv). lia.
Qed.

Theorem process_kept t orc s a s' :
  Inv s -> find_auction s (a_id a) = Some a -> process t orc s a = Ok s' -> books_kept s s'.
Proof.
  intros I Fa H. apply process_iff in H. destruct H as (x & C & P & ->). exact (act_kept t orc s a x I Fa C P).
Qed.

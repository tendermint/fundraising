(* Lifecycle (C08), bounded extension rounds (C13, structural part), isolation and immutable terms (C19): what one
   operation other than GENESIS does to one auction record (astep, step_auction), to the list of auctions (step_ids) and to
   the bids, read off TxFacts.tx_shape for the transactions and BlockWalk.begin_block_rel / step_block for the blocks.
   Every lemma here excludes GENESIS by a hypothesis; GenesisFacts.step_astep adds it. *)
From Coq Require Import ZArith NArith List Lia.
From FR Require Import Dec Types Model Spec Checkers.
From FR.Proofs Require Import FrameFacts TxFacts BlockFacts BlockWalk.
From FR.Proofs Require Import ListFacts EqbFacts.
From FR.Proofs Require LedgerSettle.
Import ListNotations.
Open Scope Z_scope.

(* what one operation does to the record of one auction; GENESIS is an AsQuiet step (GenesisFacts.step_astep) *)
Inductive astep (s : state) (o : op) (a : auction) : auction -> Prop :=
| AsQuiet : FrameFacts.is_block o = false \/ (exists c, fst (step s o) = BlockErr c) -> astep s o a a
| AsCancel who :
    o = OTx (MCancel who (a_id a)) -> fst (step s o) = Accepted -> a_status a = StandBy -> astep s o a (cancel_of a)
| AsBid who bt p c x :
    o = OTx (MPlaceBid who (a_id a) bt p c) -> fst (step s o) = Accepted -> a_status a = Started ->
    astep s o a (set_remaining a x)
| AsBlock a' :
    FrameFacts.is_block o = true -> fst (step s o) = BlockOk ->
    block_rel (FrameFacts.block_time o) (block_orc o) s a a' -> astep s o a a'.

Lemma step_auction s o id a :
  ids_ok s -> o <> OGenesis -> find_auction s id = Some a ->
  exists a', find_auction (snd (step s o)) id = Some a' /\ astep s o a a'.
Proof.
  intros OK Hg F. destruct (FrameFacts.is_block o) eqn:B.
  - destruct (step_block s o B) as [[Ho Hb]|[Ho (tr & Hs)]].
    + destruct (begin_block_rel _ _ _ _ OK Hb id a F) as (a' & F' & R). exists a'. split; [exact F'|]. apply AsBlock; assumption.
    + exists a. split; [rewrite Hs; exact F|]. apply AsQuiet. right. exact Ho.
  - pose proof (step_shape s o B Hg) as Sh. pose proof (find_auction_some _ _ _ F) as [_ <-].
    destruct (tx_auction _ _ _ _ _ a Sh F) as (a' & F' & R). exists a'. split; [exact F'|].
    destruct R as [|who St Ho ->|who bt p c x St Ho ->].
    + apply AsQuiet. left. exact B.
    + eapply AsCancel; eauto.
    + eapply AsBid; eauto.
Qed.

Lemma forward_refl x : forward x x = true.
Proof. unfold forward. rewrite status_eqb_refl. reflexivity. Qed.

Lemma a_ends_cancel_of a : a_ends (cancel_of a) = a_ends a.
Proof. unfold cancel_of. destruct (a_type a); reflexivity. Qed.

(* the immutable terms, without first_end (which is derived from a_ends) *)
Definition terms0_eq (a a' : auction) : Prop :=
  a_id a' = a_id a /\ a_type a' = a_type a /\ a_auctioneer a' = a_auctioneer a /\ a_upper a' = a_upper a
  /\ a_start_price a' = a_start_price a /\ a_sell_denom a' = a_sell_denom a /\ a_sell_amt a' = a_sell_amt a
  /\ a_pay_denom a' = a_pay_denom a /\ a_scheds a' = a_scheds a /\ a_start a' = a_start a
  /\ a_min_price a' = a_min_price a /\ a_max_round a' = a_max_round a /\ a_rate a' = a_rate a.

Lemma terms0_refl a : terms0_eq a a.
Proof. repeat split. Qed.
Lemma terms0_cancel_of a : terms0_eq a (cancel_of a).
Proof. unfold cancel_of. destruct (a_type a); repeat split. Qed.
Lemma terms0_id a a' : terms0_eq a a' -> a_id a' = a_id a.
Proof. intros T. apply T. Qed.
Lemma terms0_type a a' : terms0_eq a a' -> a_type a' = a_type a.
Proof. intros T. apply T. Qed.
Lemma terms0_auctioneer a a' : terms0_eq a a' -> a_auctioneer a' = a_auctioneer a.
Proof. intros T. apply T. Qed.
Lemma terms0_pay_denom a a' : terms0_eq a a' -> a_pay_denom a' = a_pay_denom a.
Proof. intros T. apply T. Qed.
Lemma terms0_scheds a a' : terms0_eq a a' -> a_scheds a' = a_scheds a.
Proof. intros T. apply T. Qed.
Lemma terms0_max_round a a' : terms0_eq a a' -> a_max_round a' = a_max_round a.
Proof. intros T. apply T. Qed.

Definition ends_rel (s : state) (o : op) (a a' : auction) : Prop :=
  a_ends a' = a_ends a
  \/ (a_ends a' = a_ends a ++ [last_end a + p_period (st_params s) * day_ns]
      /\ a_type a = Batch /\ a_status a = Started /\ a_status a' = Started
      /\ FrameFacts.is_block o = true /\ fst (step s o) = BlockOk
      /\ last_end a <= FrameFacts.block_time o /\ N.of_nat (length (a_ends a)) <> (a_max_round a + 1)%N).

(* the end times stay, or one is appended while rounds are left *)
Lemma ends_rel_length s o a a' :
  ends_rel s o a a' ->
  a_ends a' = a_ends a
  \/ (length (a_ends a') = S (length (a_ends a)) /\ N.of_nat (length (a_ends a)) <> (a_max_round a + 1)%N).
Proof.
  intros [E|(E & _ & _ & _ & _ & _ & _ & Hn)]; [left; exact E|right]. rewrite E, app_length. cbn [length]. split; [lia|exact Hn].
Qed.

Lemma settled_settled_st a : settled (settled_st a) = true.
Proof. destruct (LedgerSettle.settled_st_cases a) as [-> | ->]; reflexivity. Qed.
Lemma forward_settled x : settled x = true -> forward Started x = true.
Proof. destruct x; intros H; try discriminate H; reflexivity. Qed.

Lemma block_rel_terms t orc s a a' : block_rel t orc s a a' -> terms0_eq a a'.
Proof.
  intros R. destruct (block_rel_out _ _ _ _ _ R) as [_|_ _|_ _ _|order mi _ _ _ _ _|_ _];
    try destruct (decision s a mi); repeat split.
Qed.

Lemma astep_forward s o a a' : astep s o a a' -> forward (a_status a) (a_status a') = true.
Proof.
  intros [_|who _ _ St|who bt p c x _ _ St|a1 _ _ R]; [apply forward_refl|rewrite St; reflexivity|apply forward_refl|].
  destruct (block_rel_out _ _ _ _ _ R) as [_|St _|St _ _|order mi St _ _ _ _|St _]; rewrite ?St; try reflexivity.
  - apply forward_refl.
  - apply forward_settled, settled_settled_st.
  - destruct (decision s a mi); [cbn; rewrite St; reflexivity|apply forward_settled, settled_settled_st].
Qed.

Lemma astep_terms s o a a' : astep s o a a' -> terms0_eq a a'.
Proof.
  intros [_|who _ _ _|who bt p c x _ _ _|a1 _ _ R];
    [apply terms0_refl|apply terms0_cancel_of|repeat split|exact (block_rel_terms _ _ _ _ _ R)].
Qed.

Lemma astep_ends s o a a' : astep s o a a' -> ends_rel s o a a'.
Proof.
  intros [_|who _ _ _|who bt p c x _ _ _|a1 B Ho R]; try (left; reflexivity); [left; apply a_ends_cancel_of|].
  destruct (block_rel_out _ _ _ _ _ R) as [_|_ _|_ _ _|order mi St Due Ty _ _|_ _]; try (left; reflexivity).
  destruct (decision s a mi) eqn:D; [right|left; reflexivity].
  apply decision_true_iff in D. destruct D as [D _]. repeat split; assumption.
Qed.

Lemma astep_cancelled s o a a' : astep s o a a' -> a_status a = Cancelled -> a' = a.
Proof.
  intros [_|who _ _ St|who bt p c x _ _ St|a1 _ _ R] Sc; try congruence.
  unfold block_rel in R. rewrite Sc in R. exact R.
Qed.

Lemma step_ids s o :
  ids_ok s -> o <> OGenesis ->
  (exists a, creation s o (fst (step s o)) (snd (step s o)) a)
  \/ (map a_id (st_auctions (snd (step s o))) = map a_id (st_auctions s)
      /\ st_aseq (snd (step s o)) = st_aseq s).
Proof.
  intros OK Hg. destruct (FrameFacts.is_block o) eqn:B.
  - right. pose proof (we_glob _ _ (step_block_eff s o OK B)) as G. split; [exact (ge_ids G)|exact (ge_aseq G)].
  - apply tx_auction_list. apply step_shape; assumption.
Qed.

Lemma ids_ok_step s o : ids_ok s -> o <> OGenesis -> ids_ok (snd (step s o)).
Proof.
  intros OK Hg. destruct (step_ids s o OK Hg) as [(a & C)|[H1 H2]].
  - eapply ids_ok_create; [exact (cr_auctions C)|exact (cr_id C)|exact (cr_aseq C)|exact OK].
  - eapply ids_ok_same; eassumption.
Qed.

Lemma round_bounded_step s o a a' :
  terms0_eq a a' -> ends_rel s o a a' -> round_bounded a -> round_bounded a'.
Proof.
  intros T E [[B1 B2] B3]. unfold round_bounded. rewrite (terms0_max_round _ _ T).
  destruct (ends_rel_length _ _ _ _ E) as [->|[-> Hn]]; [auto|]. repeat split; lia.
Qed.

Lemma step_auctions_origin s o a' :
  ids_ok s -> o <> OGenesis -> In a' (st_auctions (snd (step s o))) ->
  (exists a, In a (st_auctions s) /\ astep s o a a')
  \/ creation s o (fst (step s o)) (snd (step s o)) a'.
Proof.
  intros OK Hg HI. pose proof (ids_ok_step s o OK Hg) as OK'.
  pose proof (ids_ok_find _ _ OK' HI) as F'.
  assert (Old : In (a_id a') (map a_id (st_auctions s)) ->
                exists a, In a (st_auctions s) /\ astep s o a a').
  { intros HM. apply in_map_iff in HM. destruct HM as (a & Hid & Ha).
    pose proof (ids_ok_find _ _ OK Ha) as F. rewrite Hid in F.
    destruct (step_auction s o (a_id a') a OK Hg F) as (a'' & F'' & R).
    exists a. split; [exact Ha|]. congruence. }
  destruct (step_ids s o OK Hg) as [(a0 & C)|[H1 _]].
  - rewrite (cr_auctions C) in HI. apply in_app_or in HI.
    destruct HI as [HI|[<-|[]]]; [|right; exact C].
    left. apply Old. apply in_map. exact HI.
  - left. apply Old. rewrite <- H1. apply in_map. exact HI.
Qed.

Lemma bounded_step s o : ids_ok s -> o <> OGenesis -> bounded s -> bounded (snd (step s o)).
Proof.
  intros OK Hg B. unfold bounded in *. rewrite Forall_forall in *. intros a' HI.
  destruct (step_auctions_origin s o a' OK Hg HI) as [(a & Ha & R)|C].
  - eapply round_bounded_step; [eapply astep_terms; exact R|apply astep_ends; exact R|apply B; exact Ha].
  - destruct (cr_ends C) as (e & He). pose proof (cr_rounds C) as Hm.
    unfold round_bounded. rewrite He. cbn [length]. repeat split; lia.
Qed.

Lemma astep_first_end s o a a' : astep s o a a' -> a_ends a <> [] -> first_end a' = first_end a.
Proof.
  intros R Hne. unfold first_end. destruct (astep_ends _ _ _ _ R) as [->|(-> & _)]; [reflexivity|].
  apply ListFacts.hd_app_nonempty. exact Hne.
Qed.

Lemma step_terms s o id a :
  ids_ok s -> o <> OGenesis -> find_auction s id = Some a ->
  exists a', find_auction (snd (step s o)) id = Some a' /\ terms0_eq a a'
             /\ (a_ends a <> [] -> first_end a' = first_end a).
Proof.
  intros OK Hg F. destruct (step_auction s o id a OK Hg F) as (a' & F' & R).
  exists a'. split; [exact F'|]. split; [exact (astep_terms _ _ _ _ R)|exact (astep_first_end _ _ _ _ R)].
Qed.

Lemma terms_eqb_of a a' : terms0_eq a a' -> first_end a' = first_end a -> auction_terms_eqb a a' = true.
Proof.
  intros (T1 & T2 & T3 & T4 & T5 & T6 & T7 & T8 & T9 & T10 & T11 & T12 & T13) T14.
  unfold auction_terms_eqb. rewrite T1, T2, T3, T4, T5, T6, T7, T8, T9, T10, T11, T12, T13, T14.
  apply EqbFacts.auction_terms_eqb_refl.
Qed.

Lemma step_bids_evolve s o : ids_ok s -> o <> OGenesis -> bids_evolve s (snd (step s o)).
Proof.
  intros OK Hg. destruct (FrameFacts.is_block o) eqn:B.
  - pose proof (we_bids _ _ (step_block_eff s o OK B)) as E. exact (bids_evolve_by_sub _ _ _ _ flag_only_keys E).
  - eapply tx_bids_evolve. apply step_shape; assumption.
Qed.

Lemma run_ids_ok_bounded ops : forall s,
  Forall (fun o => o <> OGenesis) ops -> ids_ok s -> bounded s -> ids_ok (run s ops) /\ bounded (run s ops).
Proof.
  intros s Hf OK B. apply (run_ind (fun o => o <> OGenesis) (fun s => ids_ok s /\ bounded s)); [|exact Hf|split; assumption].
  intros s0 o Hg [OK0 B0]. split; [apply ids_ok_step|apply bounded_step]; assumption.
Qed.

(* the target used here is the one of the executable checker *)
Lemma target_agrees t : Checkers.target t = FrameFacts.target (t_pre t) (t_op t).
Proof. unfold Checkers.target. destruct (t_op t) as [m| | | | | | |]; try reflexivity; destruct m; reflexivity. Qed.

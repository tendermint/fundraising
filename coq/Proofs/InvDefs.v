(* The global invariant of reachable states, as a conjunction of named parts.  Definitions only;
   the static parts are preserved in InvStatic*.v, J5 in AllowFacts.v, J6 and J8 in Escrow*.v, J7 in
   VestingInv.v; InvAll.v puts them together.  Each part is phrased so that it can be preserved on
   its own, possibly assuming earlier parts. *)
From Coq Require Import ZArith NArith List Bool Arith.
From FR Require Import Dec Types Bank Match Step Genesis Model Spec.
Import ListNotations.
Open Scope Z_scope.

(* J1  auction ids are 0, 1, 2, ... in store order *)
Definition ids_seq (s : state) : Prop := map a_id (st_auctions s) = ids_upto (st_aseq s).

(* J2  static well-formedness of an auction record *)
Definition scheds_wf (a : auction) : Prop :=
  a_scheds a = [] \/ scheds_ok (a_scheds a) (first_end a) year1_ns 0 = true.
Record auction_wf (a : auction) : Prop := {
  awf_price : 0 < a_start_price a;
  awf_amt : 0 < a_sell_amt a;
  awf_denoms : a_sell_denom a <> a_pay_denom a;
  awf_ends : (1 <= length (a_ends a) <= N.to_nat (a_max_round a) + 1)%nat;
  awf_maxr : (a_max_round a <= MaxExtendedRound)%N;
  awf_scheds : scheds_wf a;
  awf_nscheds : (length (a_scheds a) <= MaxNumVestingSchedules)%nat;
  awf_batch : a_type a = Batch -> 0 < a_min_price a /\ 0 < a_rate a /\ a_remaining a = 0 /\ 0 <= a_matched_price a;
  awf_fixed : a_type a = FixedPrice ->
              a_min_price a = 0 /\ a_rate a = 0 /\ a_max_round a = 0%N /\ a_matched_price a = 0
              /\ 0 <= a_remaining a <= a_sell_amt a
}.
Definition auctions_wf (s : state) : Prop := Forall auction_wf (st_auctions s).

(* J3  bids *)
Record bid_wf (s : state) (b : bid) : Prop := {
  bwf_price : 0 < b_price b;
  bwf_amt : 0 < b_amt b;
  bwf_id : (1 <= b_id b <= st_bseq s (b_auction b))%N;
  bwf_auction : exists a, find_auction s (b_auction b) = Some a
      /\ match a_type a with
         | FixedPrice => b_type b = BFixed /\ (b_denom b = a_pay_denom a \/ b_denom b = a_sell_denom a)
                         /\ b_price b = a_start_price a
                         /\ b_matched b = (0 <? sell_amount (a_pay_denom a) b)
         | Batch => ((b_type b = BWorth /\ b_denom b = a_pay_denom a) \/ (b_type b = BMany /\ b_denom b = a_sell_denom a))
                    /\ a_min_price a <= b_price b
         end
      /\ a_status a <> StandBy /\ a_status a <> Cancelled
}.
Definition bids_wf (s : state) : Prop :=
  Forall (bid_wf s) (st_bids s)
  (* per auction the ids are exactly 1, 2, ..., bid_seq in store order *)
  /\ forall id, map b_id (bids_of s id) = map N.succ (ids_upto (st_bseq s id)).

(* J4  allow-list *)
Definition allowed_wf (s : state) : Prop :=
  Forall (fun x => 0 < al_max x) (st_allowed s)
  /\ NoDup (map (fun x => (al_auction x, al_bidder x)) (st_allowed s)).

(* J5  every recorded bid belongs to an allow-listed account (C10) *)
Definition bids_allowed (s : state) : Prop :=
  forall b, In b (st_bids s) -> find_allowed s (b_auction b) (b_bidder b) <> None.

(* J6  fixed price: the published remainder is exact (C06) *)
Definition remaining_inv (s : state) : Prop :=
  forall a, In a (st_auctions s) -> a_type a = FixedPrice ->
    if status_eqb (a_status a) Cancelled then a_remaining a = 0
    else a_remaining a = a_sell_amt a - sumZ (map (sell_amount (a_pay_denom a)) (bids_of s (a_id a))).

(* J7  vesting queues *)
Record vq_wf (s : state) (v : vq) : Prop := {
  vwf_amt : 0 <= v_amt v;
  vwf_auction : exists a, find_auction s (v_auction v) = Some a
      /\ (a_status a = VestingS \/ a_status a = Finished)
      /\ v_auctioneer v = a_auctioneer a /\ v_denom v = a_pay_denom a
      /\ In (v_time v) (map s_time (a_scheds a))
      /\ (a_status a = Finished -> v_released v = true)
}.
Definition vqs_wf (s : state) : Prop :=
  Forall (vq_wf s) (st_vqs s)
  /\ NoDup (map (fun v => (v_auction v, v_time v)) (st_vqs s))
  (* per auction: release times as in the schedule (hence ascending); released flags form a prefix *)
  /\ forall a, In a (st_auctions s) -> (a_status a = VestingS \/ a_status a = Finished) ->
       a_scheds a <> [] ->
       map v_time (vqs_of s (a_id a)) = map s_time (a_scheds a)
       /\ exists k, map v_released (vqs_of s (a_id a))
                    = repeat true k ++ repeat false (length (a_scheds a) - k).

(* J8  escrow accounts hold at least what the records owe, and no balance is negative (C01, inequality form;
   the exact form is the step-wise excess equation of Checkers.c01_ok) *)
Definition is_open (st : status) : bool := status_eqb st StandBy || status_eqb st Started.
Definition owed (s : state) (r : role) (id : N) (d : N) : Z :=
  match find_auction s id with
  | None => 0
  | Some a =>
      match r with
      | Selling => if N.eqb d (a_sell_denom a) && is_open (a_status a) then a_sell_amt a else 0
      | Paying => if N.eqb d (a_pay_denom a) && status_eqb (a_status a) Started
                  then sumZ (map (pay_amount (a_pay_denom a)) (bids_of s id)) else 0
      | Vesting => if N.eqb d (a_pay_denom a) && status_eqb (a_status a) VestingS
                   then sumZ (map v_amt (filter (fun v => negb (v_released v)) (vqs_of s id))) else 0
      end
  end.
Definition escrow_inv (s : state) : Prop :=
  (forall x d, 0 <= st_bal s x d) /\ forall r id d, owed s r id d <= st_bal s (Escrow r id) d.

(* J9  the recorded number of matched bids of a batch auction is the number of its flagged bids *)
Definition mlen_inv (s : state) : Prop :=
  forall id, match find_auction s id with
             | Some a => match a_type a with
                         | Batch => st_mlen s id = count_matched (st_bids s) id
                         | FixedPrice => st_mlen s id = 0
                         end
             | None => st_mlen s id = 0
             end.

(* J10  parameters *)
Definition params_wf (s : state) : Prop :=
  coins_ok (p_cfee (st_params s)) None = true /\ coins_ok (p_bfee (st_params s)) None = true.

(* J11  counters of auctions that do not exist yet are zero; an auction waiting to open has no bids *)
Definition fresh_inv (s : state) : Prop :=
  (forall id, (st_aseq s <= id)%N -> st_bseq s id = 0%N /\ bids_of s id = [] /\ allowed_of s id = [] /\ vqs_of s id = [] /\ st_mlen s id = 0)
  /\ forall a, In a (st_auctions s) -> a_status a = StandBy \/ a_status a = Cancelled -> bids_of s (a_id a) = [].

Record Inv (s : state) : Prop := {
  inv_ids : ids_seq s;
  inv_auctions : auctions_wf s;
  inv_bids : bids_wf s;
  inv_allowed : allowed_wf s;
  inv_bids_allowed : bids_allowed s;
  inv_remaining : remaining_inv s;
  inv_vqs : vqs_wf s;
  inv_escrow : escrow_inv s;
  inv_mlen : mlen_inv s;
  inv_params : params_wf s;
  inv_fresh : fresh_inv s
}.

(* the empty module state over any non-negative bank *)
Definition init_state (bal : addr -> N -> Z) (now : Z) (sw : bool) (p : params) : state :=
  {| st_params := p; st_auctions := []; st_bids := []; st_allowed := []; st_vqs := [];
     st_aseq := 0%N; st_bseq := fun _ => 0%N; st_mlen := fun _ => 0; st_bal := bal; st_now := now;
     st_listeners := []; st_switch := sw; st_xfers := []; st_trace := [] |}.

(* the oracle of a block is valid when it lists, for every batch auction that is due, a valid sweep order *)
Definition oracle_ok (s : state) (o : op) : Prop :=
  match o with
  | OBlock t orc | OFaultBlock t orc _ =>
      forall a, In a (st_auctions s) -> a_type a = Batch -> a_status a = Started -> last_end a <= t ->
        exists ids order, find (fun x => N.eqb (fst x) (a_id a)) orc = Some (a_id a, ids)
                          /\ valid_order (bids_of s (a_id a)) ids = Some order
  | _ => True
  end.

(* The global invariant Inv (InvDefs.v) holds in every reachable state: its parts, proved one by one elsewhere, are
   put together for every operation, auction by auction inside a block.  With it and a valid oracle, block processing
   succeeds or returns the veto of a listener on H_BeforeAllocated (process_verdict, process_all_verdict: one walk,
   the failing case naming its cause), so it does not fail when no listener vetoes (C07).
   carried: how a predicate stated beside Inv is carried along.

   To add a part.  A predicate that only has to hold in reachable states stands beside Inv: prove carried P (four
   facts, each from a state in Inv) and take carried_step, carried_run, carried_reachable.  VestingPending.vesting_pending
   ("J12" in DESIGN.md: beside Inv, not a field of it) and LedgerVesting.LI are such.  It must be a field of Inv only
   if the preservation of another field, or the liveness of block processing (EscrowBlock.chosen_covered), needs it as
   a hypothesis; then: the field in InvDefs.Inv; if it does not read the bank and its preservation needs static parts
   only, a field of InvStaticBase.InvS as well, with a bullet in InvS_ceq (and in ceq the fields it reads), in those
   InvS_* lemmas of InvStaticUpd whose update touches it (the others close it themselves), in InvStatic.InvS_init and
   InvStaticGenesis.InvS_state_same; otherwise an argument of Inv_intro below and a bullet after each of its four uses
   (Inv_process_found, Inv_ext, Inv_step_nogen, Inv_init), proved in a file of its own as J7 is in VestingInv.v; in both
   cases an X_same lemma and a bullet in GenesisInv.state_same_inv, and a line in C07_invariant_consequences
   (Properties/C07.v) if an older side condition follows from it.
   Names: Inv_step and Inv_run cover every operation, Inv_step_nogen all but GENESIS; the InvS_* theorems of InvStatic.v
   go the other way (InvS_step excludes GENESIS, InvS_step_all of InvStaticGenesis.v includes it).
   What follows from Inv for the users: Inv_InvS, Inv_ids_ok, Inv_find_in, Inv_find_bid_in here; Inv_find_wf, Inv_book_wf,
   Inv_denoms_wf, Inv_vqs_terms in EscrowBlock.v (which this file imports); Inv_WF, Inv_bids_pos in FixedFacts.v. *)
From Coq Require Import ZArith NArith List.
From FR Require Import Types Match Step Genesis Model Spec.
From FR.Proofs Require Import InvDefs FrameFacts TxFacts BlockFacts BlockWalk InvStaticBase InvStaticBlock.
From FR.Proofs Require ResFacts HookFacts PrecondBase VestingInv AllowFacts InvStatic GenesisImport GenesisInv.
From FR.Proofs Require Import EscrowTx EscrowBlock LedgerSettle.
Import ListNotations.
Open Scope Z_scope.

Lemma Inv_InvS s : Inv s -> InvS s.
Proof. intros I. split; apply I. Qed.

Lemma Inv_intro s : InvS s -> bids_allowed s -> remaining_inv s -> vqs_wf s -> escrow_inv s -> Inv s.
Proof. intros S J5 J6 J7 J8. split; first [assumption|apply S]. Qed.

Lemma Inv_ids_ok s : Inv s -> ids_ok s.
Proof. intros I. apply ids_seq_ids_ok, (inv_ids _ I). Qed.

Lemma Inv_find_in s a : Inv s -> In a (st_auctions s) -> find_auction s (a_id a) = Some a.
Proof. intros I Ha. apply ids_ok_find; [apply Inv_ids_ok, I|exact Ha]. Qed.

Lemma Inv_find_bid_in s b : Inv s -> In b (st_bids s) -> find_bid s (b_auction b) (b_id b) = Some b.
Proof.
  intros I Hb. unfold find_bid. apply find_of_in_unique; [|exact Hb].
  apply bid_keys_NoDup, (inv_bids _ I).
Qed.

Lemma allocate_no_veto s a mi w s' : allocate s a mi w = Ok s' -> no_veto s H_BeforeAllocated = true.
Proof.
  unfold allocate. cbv zeta. intros H. apply ResFacts.bind_ok_inv in H. destruct H as (s1 & H1 & _).
  apply HookFacts.yields_hook in H1. apply H1.
Qed.
Lemma close_fixed_no_veto s a s' : close_fixed s a = Ok s' -> no_veto s H_BeforeAllocated = true.
Proof. rewrite close_fixed_gen. apply settle_gen_no_veto. Qed.
Lemma settle_batch_no_veto s a mi s' : settle_batch s a mi = Ok s' -> no_veto s H_BeforeAllocated = true.
Proof. rewrite settle_batch_gen. apply settle_gen_no_veto. Qed.

Lemma process_escrow t orc s a s' :
  Inv s -> find_auction s (a_id a) = Some a -> process t orc s a = Ok s' ->
  escrow_inv s' /\ remaining_inv s'.
Proof.
  intros I Fa H. pose proof (process_kept t orc s a s' I Fa H) as K.
  split; [exact (books_kept_escrow _ _ (inv_escrow _ I) K)|exact (bk_remaining _ _ K)].
Qed.

Lemma Inv_process_found t orc s a s' :
  Inv s -> find_auction s (a_id a) = Some a -> process t orc s a = Ok s' -> Inv s'.
Proof.
  intros I Fa H. destruct (process_escrow t orc s a s' I Fa H) as [E R].
  apply Inv_intro.
  - (* InvS *) exact (InvS_process_found t orc s a s' (Inv_InvS s I) Fa H).
  - (* J5 *) apply (AllowFacts.allow_rel_inv s s'); [|apply (inv_bids_allowed _ I)].
    eapply AllowFacts.keeps_rel; [apply AllowFacts.process_keeps|exact H].
  - (* J6 *) exact R.
  - (* J7 *) eapply VestingInv.vqs_wf_process; [apply Inv_ids_ok, I|apply (inv_vqs _ I)|exact Fa| |exact H].
    exact (awf_scheds _ (Inv_find_wf s a I Fa)).
  - (* J8 *) exact E.
Qed.

Theorem Inv_process t orc s a s' :
  Inv s -> In a (st_auctions s) -> process t orc s a = Ok s' -> Inv s'.
Proof. intros I Ha. exact (Inv_process_found t orc s a s' I (Inv_find_in s a I Ha)). Qed.

(* P relates a state of the walk to its end s', so the step carries P back over the auction processed first, whose
   slice the rest of the walk leaves alone *)
Lemma process_all_Inv_ind t orc (P : state -> state -> Prop) :
  (forall s, Inv s -> P s s) ->
  (forall s a s1 s', Inv s -> In a (st_auctions s) -> process t orc s a = Ok s1 -> slice_eq (a_id a) s1 s' ->
     P s1 s' -> P s s') ->
  forall l s s', Inv s -> NoDup (map a_id l) -> (forall a, In a l -> In a (st_auctions s)) ->
    process_all t orc s l = Ok s' -> P s s'.
Proof.
  intros P0 PS l s s' I ND Hl. revert s'.
  apply (process_all_walk t orc Inv (fun _ _ => True) (fun s r => forall s', process_all t orc s r = Ok s' -> P s s')); try assumption.
  - intros s0 a s1 I0 F _. exact (Inv_process_found t orc s0 a s1 I0 F).
  - auto.
  - intros s0 I0 s' H. injection H as <-. apply P0, I0.
  - intros s0 a rest I0 F _ Hn IH s' H. cbn [process_all] in H. apply ResFacts.bind_ok_inv in H.
    destruct H as (s1 & E & H).
    apply (PS s0 a s1 s' I0 (proj1 (find_auction_some _ _ _ F)) E); [|exact (IH s1 E s' H)].
    exact (process_all_frame t orc rest s1 s' (a_id a) Hn H).
  - intros a Ha. apply Inv_find_in; [exact I|apply Hl, Ha].
  - auto.
Qed.

Theorem Inv_process_all t orc : forall l s s',
  Inv s -> NoDup (map a_id l) -> (forall a, In a l -> In a (st_auctions s)) ->
  process_all t orc s l = Ok s' -> Inv s'.
Proof.
  apply (process_all_Inv_ind t orc (fun _ s' => Inv s')); [intros s I; exact I|].
  intros s a s1 s' _ _ _ _ I'. exact I'.
Qed.

Lemma Inv_ext s s' :
  st_params s' = st_params s -> st_auctions s' = st_auctions s -> st_bids s' = st_bids s ->
  st_allowed s' = st_allowed s -> st_vqs s' = st_vqs s -> st_aseq s' = st_aseq s ->
  st_bseq s' = st_bseq s -> st_mlen s' = st_mlen s -> st_bal s' = st_bal s -> Inv s -> Inv s'.
Proof.
  intros Hp Ha Hb Hl Hv Hq Hs Hm Hbal I.
  assert (C : ceq s s') by (repeat split; assumption).
  apply Inv_intro.
  - (* InvS *) apply (InvS_ceq s s' C), Inv_InvS, I.
  - (* J5 *) intros b Hb'. rewrite Hb in Hb'. unfold find_allowed.
    rewrite Hl. apply (inv_bids_allowed _ I b Hb').
  - (* J6 *) apply (remaining_inv_ext s s' Ha Hb), (inv_remaining _ I).
  - (* J7 *) apply (VestingInv.vqs_wf_ext s s' Hv Ha), (inv_vqs _ I).
  - (* J8 *) exact (books_kept_escrow _ _ (inv_escrow _ I) (books_kept_ext s s' Ha Hb Hv Hbal I)).
Qed.

Lemma Inv_with_now s t : Inv s -> Inv (with_now s t).
Proof. apply Inv_ext; reflexivity. Qed.
Lemma Inv_with_trace s tr : Inv s -> Inv (with_trace s tr).
Proof. apply Inv_ext; reflexivity. Qed.
Lemma Inv_with_listeners s l : Inv s -> Inv (with_listeners s l).
Proof. apply Inv_ext; reflexivity. Qed.

Theorem Inv_begin_block s t orc s' : Inv s -> begin_block s t orc = Ok s' -> Inv s'.
Proof.
  rewrite begin_block_eq. intros I H.
  apply (Inv_process_all t orc _ _ _ (Inv_with_now s t I)) in H; [exact H| |auto].
  apply (Inv_ids_ok s I).
Qed.

Theorem Inv_step_nogen s o : Inv s -> o <> OGenesis -> Inv (snd (step s o)).
Proof.
  intros I Hg. destruct (is_block o) eqn:B.
  - destruct (step_block s o B) as [[_ H]|[_ (tr & ->)]].
    + eapply Inv_begin_block; eassumption.
    + apply Inv_with_trace, Inv_with_now, I.
  - destruct (nonblock_step_books s o I B Hg) as (E & R & _).
    apply Inv_intro.
    + (* InvS *) apply InvStatic.InvS_step; [apply Inv_InvS, I|exact Hg].
    + (* J5 *) apply AllowFacts.bids_allowed_step, (inv_bids_allowed _ I).
    + (* J6 *) exact R.
    + (* J7 *) apply VestingInv.vqs_wf_step; [apply Inv_ids_ok, I| |apply (inv_vqs _ I)|exact Hg].
      apply VestingInv.auctions_wf_scheds, (inv_auctions _ I).
    + (* J8 *) exact E.
Qed.

Theorem Inv_step s o : Inv s -> Inv (snd (step s o)).
Proof.
  intros I. destruct o as [m|id l|id u max|t orc|t orc k|from to d amt|ls|];
    try (apply Inv_step_nogen; [exact I|discriminate]).
  apply GenesisInv.Inv_genesis, I.
Qed.

Theorem Inv_run : forall ops s, Inv s -> Inv (run s ops).
Proof. apply run_ind_all, Inv_step. Qed.

Theorem Inv_init bal now sw p :
  (forall x d, 0 <= bal x d) -> coins_ok (p_cfee p) None = true -> coins_ok (p_bfee p) None = true ->
  Inv (init_state bal now sw p).
Proof.
  intros Hb H1 H2. apply Inv_intro.
  - (* InvS *) apply InvStatic.InvS_init; assumption.
  - (* J5 *) intros b [].
  - (* J6 *) intros a [].
  - (* J7 *) split; [constructor|]. split; [constructor|]. intros a [].
  - (* J8 *) split; [exact Hb|]. intros r id d.
    unfold owed. cbn. apply Hb.
Qed.

Corollary Inv_reachable bal now sw p ops :
  (forall x d, 0 <= bal x d) -> coins_ok (p_cfee p) None = true -> coins_ok (p_bfee p) None = true ->
  Inv (run (init_state bal now sw p) ops).
Proof. intros Hb H1 H2. apply Inv_run, Inv_init; assumption. Qed.

(* A state predicate stated beside Inv holds along every history as soon as it is kept, from a state in Inv, by the four
   moves a step is made of: a block setting the time (a failed one also the trace), an operation that is neither a
   block nor GENESIS, the processing of one stored auction, the GENESIS round trip. *)
Record carried (P : state -> Prop) : Prop := {
  car_clock : forall s t tr, Inv s -> P s -> P (with_trace (with_now s t) tr);
  car_tx : forall s o, Inv s -> is_block o = false -> o <> OGenesis -> P s -> P (snd (step s o));
  car_process : forall t orc s a s', Inv s -> In a (st_auctions s) -> process t orc s a = Ok s' -> P s -> P s';
  car_genesis : forall s s', Inv s -> GenesisImport.state_same s s' -> P s -> P s' }.

Theorem carried_step P : carried P -> forall s o, Inv s -> P s -> P (snd (step s o)).
Proof.
  intros [Kc Kt Kp Ks] s o I HP. destruct (is_block o) eqn:B.
  - destruct (step_block s o B) as [[_ H]|[_ (tr & ->)]]; [|apply Kc; assumption].
    rewrite begin_block_eq in H.
    assert (HP' : P (with_now s (block_time o))) by (rewrite <- (with_trace_eta (with_now s _)); apply Kc; assumption).
    revert HP'. revert H.
    apply (process_all_Inv_ind _ _ (fun s1 s2 => P s1 -> P s2)); [auto| |apply Inv_with_now, I|apply (Inv_ids_ok s I)|auto].
    intros s0 a s1 s2 I0 Ha E _ IH H0. exact (IH (Kp _ _ s0 a s1 I0 Ha E H0)).
  - destruct (op_eq_genesis_dec o) as [->|Hg]; [|apply Kt; assumption].
    destruct (GenesisImport.genesis_step s I) as (s' & -> & SS). exact (Ks s s' I SS HP).
Qed.

Theorem carried_run P : carried P -> forall ops s, Inv s -> P s -> P (run s ops).
Proof.
  intros K ops s I HP. apply (run_ind_all (fun s => Inv s /\ P s)); [|split; assumption].
  intros s0 o [I0 H0]. split; [apply Inv_step, I0|apply carried_step; assumption].
Qed.

Theorem carried_reachable P : carried P -> forall bal now sw p ops,
  (forall x d, 0 <= bal x d) -> coins_ok (p_cfee p) None = true -> coins_ok (p_bfee p) None = true ->
  P (init_state bal now sw p) -> P (run (init_state bal now sw p) ops).
Proof. intros K bal now sw p ops Hb H1 H2. apply carried_run; [exact K|apply Inv_init; assumption]. Qed.

(* EscrowBlock.valid_for of every stored auction *)
Definition orc_ok (s : state) (t : Z) (orc : list (N * list N)) : Prop :=
  forall a, In a (st_auctions s) -> a_type a = Batch -> a_status a = Started -> last_end a <= t ->
    exists order, valid_order (bids_of s (a_id a)) (oracle_ids orc (a_id a)) = Some order.

(* EscrowBlock.valid_for, the condition of orc_ok on one auction, reads only the bids of that auction: they are not
   touched while another auction is processed *)
Lemma valid_for_kept t orc0 orc s a s1 x :
  process t orc0 s a = Ok s1 -> a_id x <> a_id a -> valid_for s t orc x -> valid_for s1 t orc x.
Proof.
  intros E Hne V Hty Hst Hle. pose proof (process_eff _ _ _ _ _ E) as PE.
  rewrite (se_bids _ _ _ (pe_frame _ _ _ PE _ Hne)). exact (V Hty Hst Hle).
Qed.

Lemma process_live t orc s a :
  Inv s -> find_auction s (a_id a) = Some a -> no_veto s H_BeforeAllocated = true ->
  (a_type a = Batch -> a_status a = Started -> last_end a <= t ->
   exists order, valid_order (bids_of s (a_id a)) (oracle_ids orc (a_id a)) = Some order) ->
  exists s', process t orc s a = Ok s'.
Proof.
  intros I Fa Hnv Horc. destruct (chosen_total t orc s a I Fa Horc) as [x C].
  exists (act_state t s a x). apply process_iff. exists x. split; [exact C|]. split; [|reflexivity].
  apply (chosen_covered t orc s a x I Fa C). intros _ _ _. exact Hnv.
Qed.

Lemma settle_gen_veto s a mi wr :
  no_veto s H_BeforeAllocated = false -> exists tr, settle_gen s a mi wr = Err E_HOOK tr.
Proof.
  intros Hnv. unfold settle_gen, allocate. cbv zeta.
  rewrite HookFacts.no_veto_closed in Hnv. rewrite HookFacts.call_hook_closed.
  destruct (HookFacts.first_veto _ _); [cbn [bind]; eauto|discriminate Hnv].
Qed.

Lemma process_verdict t orc s a :
  Inv s -> find_auction s (a_id a) = Some a -> valid_for s t orc a ->
  (exists s', process t orc s a = Ok s') \/
  (no_veto s H_BeforeAllocated = false /\ exists tr, process t orc s a = Err E_HOOK tr).
Proof.
  intros I Fa Horc. destruct (no_veto s H_BeforeAllocated) eqn:Hnv; [left; apply process_live; assumption|].
  destruct (chosen_total t orc s a I Fa Horc) as [x C].
  assert (Other : (forall mi wr, x <> ASettle mi wr) -> exists s', process t orc s a = Ok s').
  { intros Hx. exists (act_state t s a x). apply process_iff. exists x. split; [exact C|]. split; [|reflexivity].
    apply (chosen_covered t orc s a x I Fa C). intros mi wr E. destruct (Hx mi wr E). }
  destruct x as [| |mi|mi wr|]; try (left; apply Other; discriminate).
  (* a settlement: the hook comes first *)
  right. split; [reflexivity|]. apply chosen_settle_iff in C. destruct C as (St & L & W). apply Z.leb_le in L.
  unfold process. rewrite St, L.
  destruct W as [(Ty & -> & ->)|(Ty & -> & D & order & HV & HC)]; rewrite Ty.
  - rewrite close_fixed_gen. apply settle_gen_veto, Hnv.
  - rewrite (close_batch_unfold s orc a order mi HV HC), D, settle_batch_gen. apply settle_gen_veto. rewrite <- Hnv.
    apply PrecondBase.no_veto_ext. reflexivity.
Qed.

(* process_all_walk under the invariant: V is what each auction of the list brings along (a valid order for it) *)
Lemma process_all_walk_ind t orc (V : state -> auction -> Prop) (P : state -> list auction -> Prop) :
  (forall s a s1 x, process t orc s a = Ok s1 -> a_id x <> a_id a -> V s x -> V s1 x) ->
  (forall s, P s []) ->
  (forall s a rest, Inv s -> In a (st_auctions s) -> V s a ->
     (forall s1, process t orc s a = Ok s1 -> P s1 rest) -> P s (a :: rest)) ->
  forall l s, Inv s -> NoDup (map a_id l) -> (forall a, In a l -> In a (st_auctions s)) ->
    (forall a, In a l -> V s a) -> P s l.
Proof.
  intros VK P0 PS l s I ND Hl HV. apply (process_all_walk t orc Inv V P); try assumption.
  - intros s0 a s1 I0 F _. exact (Inv_process_found t orc s0 a s1 I0 F).
  - intros s0 _. apply P0.
  - intros s0 a rest I0 F Va _ IH. exact (PS s0 a rest I0 (proj1 (find_auction_some _ _ _ F)) Va IH).
  - intros a Ha. apply Inv_find_in; [exact I|apply Hl, Ha].
Qed.

(* the failing disjunct names its cause, so that "no veto, hence no failure" is read off it *)
Theorem process_all_verdict t orc : forall l s,
  Inv s -> NoDup (map a_id l) -> (forall a, In a l -> In a (st_auctions s)) ->
  (forall a, In a l -> valid_for s t orc a) ->
  (exists s', process_all t orc s l = Ok s')
  \/ (no_veto s H_BeforeAllocated = false /\ exists tr, process_all t orc s l = Err E_HOOK tr).
Proof.
  apply (process_all_walk_ind t orc (fun s a => valid_for s t orc a)
           (fun s l => (exists s', process_all t orc s l = Ok s')
                       \/ (no_veto s H_BeforeAllocated = false /\ exists tr, process_all t orc s l = Err E_HOOK tr))).
  - intros s a s1 x. apply valid_for_kept.
  - intros s. left. cbn [process_all]. eauto.
  - intros s a rest I Ha Va IH. cbn [process_all].
    destruct (process_verdict t orc s a I (Inv_find_in s a I Ha) Va) as [[s1 E]|[N [tr E]]]; rewrite E; cbn [bind].
    + destruct (IH s1 E) as [H|[N1 H]]; [left; exact H|right; split; [|exact H]].
      (* the listeners are not touched by the auction processed first *)
      rewrite <- N1. apply PrecondBase.no_veto_ext. pose proof (process_eff _ _ _ _ _ E) as PE.
      symmetry. exact (ge_listeners (pe_glob _ _ _ PE)).
    + right. eauto.
Qed.

Theorem begin_block_verdict s t orc :
  Inv s -> orc_ok s t orc ->
  (exists s', begin_block s t orc = Ok s')
  \/ (no_veto s H_BeforeAllocated = false /\ exists tr, begin_block s t orc = Err E_HOOK tr).
Proof.
  intros I Horc. rewrite begin_block_eq.
  apply (process_all_verdict t orc (st_auctions s) (with_now s t)).
  - apply Inv_with_now, I.
  - apply (Inv_ids_ok s I).
  - auto.
  - intros a Ha. exact (Horc a Ha).
Qed.

(* the last hypothesis is EscrowBlock.valid_for of every auction of the list *)
Theorem process_all_live t orc : forall l s,
  Inv s -> NoDup (map a_id l) -> (forall a, In a l -> In a (st_auctions s)) ->
  no_veto s H_BeforeAllocated = true ->
  (forall a, In a l -> a_type a = Batch -> a_status a = Started -> last_end a <= t ->
     exists order, valid_order (bids_of s (a_id a)) (oracle_ids orc (a_id a)) = Some order) ->
  exists s', process_all t orc s l = Ok s'.
Proof.
  intros l s I ND Hl Hnv HV. destruct (process_all_verdict t orc l s I ND Hl HV) as [H|[N _]]; [exact H|congruence].
Qed.

Theorem begin_block_live s t orc :
  Inv s -> no_veto s H_BeforeAllocated = true -> orc_ok s t orc -> exists s', begin_block s t orc = Ok s'.
Proof. intros I Hnv Horc. destruct (begin_block_verdict s t orc I Horc) as [H|[N _]]; [exact H|congruence]. Qed.

(* InvDefs.oracle_ok is the same condition, phrased with the oracle entry *)
Lemma oracle_ok_orc_ok s t orc : oracle_ok s (OBlock t orc) -> orc_ok s t orc.
Proof.
  intros H a Ha Hty Hst Hle. destruct (H a Ha Hty Hst Hle) as (ids & order & Hf & HV).
  exists order. unfold oracle_ids. rewrite Hf. exact HV.
Qed.

Theorem block_never_fails s t orc :
  Inv s -> no_veto s H_BeforeAllocated = true -> oracle_ok s (OBlock t orc) ->
  fst (step s (OBlock t orc)) = BlockOk /\ Inv (snd (step s (OBlock t orc))).
Proof.
  intros I Hnv Ho. destruct (begin_block_live s t orc I Hnv (oracle_ok_orc_ok _ _ _ Ho)) as [s' H].
  cbn [step]. rewrite H. cbn [fst snd].
  split; [reflexivity|]. eapply Inv_begin_block; eassumption.
Qed.

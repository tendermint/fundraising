(* Boolean forms of the well-formedness hypotheses of the matching theorems, MatchDemand.book_wf and
   MatchConseq.denoms_wf (to show by computation that they are satisfiable). *)
From Coq Require Import ZArith NArith List Bool.
From FR Require Import Types Match.
From FR.Proofs Require Import MatchDemand MatchConseq.
Import ListNotations.
Open Scope Z_scope.

Definition book_wfb (bs : list bid) (al : list allowed) : bool :=
  forallb (fun b => (0 <? b_price b) && (0 <? b_amt b)
                    && existsb (fun x => N.eqb (al_bidder x) (b_bidder b)) al) bs
  && nodupN (map al_bidder al)
  && forallb (fun x => 0 <? al_max x) al.

Lemma book_wfb_sound bs al : book_wfb bs al = true -> book_wf bs al.
Proof.
  unfold book_wfb. rewrite !andb_true_iff, !forallb_forall. intros [[H1 H2] H3].
  assert (Hb : forall b, In b bs -> 0 < b_price b /\ 0 < b_amt b /\
                                   exists x, In x al /\ al_bidder x = b_bidder b).
  { intros b Hb. specialize (H1 b Hb). rewrite !andb_true_iff, !Z.ltb_lt, existsb_exists in H1.
    destruct H1 as [[Ha Hb'] (x & Hx & Ex)]. apply N.eqb_eq in Ex.
    split; [exact Ha|]. split; [exact Hb'|]. exists x. split; assumption. }
  constructor.
  - intros b Hb'. apply (Hb b Hb').
  - intros b Hb'. apply (Hb b Hb').
  - intros b Hb'. apply (Hb b Hb').
  - apply nodupN_iff. exact H2.
  - intros x Hx. apply Z.ltb_lt. apply H3. exact Hx.
Qed.

Definition denoms_wfb (pd : N) (bs : list bid) : bool :=
  forallb (fun b => match b_type b with
                    | BWorth => N.eqb (b_denom b) pd
                    | BMany => negb (N.eqb (b_denom b) pd)
                    | BFixed => false
                    end) bs.

Lemma denoms_wfb_sound pd bs : denoms_wfb pd bs = true -> denoms_wf pd bs.
Proof.
  unfold denoms_wfb, denoms_wf. intros H b Hb. rewrite forallb_forall in H. specialize (H b Hb).
  destruct (b_type b); [discriminate| |].
  - left. split; [reflexivity|]. apply N.eqb_eq. exact H.
  - right. split; [reflexivity|]. apply negb_true_iff in H.
    apply N.eqb_neq. exact H.
Qed.

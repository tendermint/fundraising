(* Checker link for C13 (extended rounds): Checkers.c13_ok holds of every transition of the model from a
   state satisfying the invariant; c13_count (the recorded count of matched bids changes in blocks only) holds
   of every transition, and with it c13_all. *)
From Coq Require Import ZArith NArith List Bool Arith Lia.
From FR Require Import Types Match Step Model Checkers.
From FR.Proofs Require Import InvDefs FrameFacts TxFacts BlockFacts BlockWalk LifeTheorems InvAll FixedFacts Chk08.
From FR.Proofs Require EqbFacts ChkSettle.
Import ListNotations.
Open Scope Z_scope.

Lemma ends_le_wf a : auction_wf a -> ends_le (length (a_ends a)) (a_max_round a) = true.
Proof. intros W. pose proof (awf_ends _ W). apply N.leb_le. lia. Qed.

(* a batch auction whose last round has ended: the block extends it or settles it, and records the count either way *)
Lemma batch_due_result s t orc s' a :
  Inv s -> begin_block s t orc = Ok s' -> In a (st_auctions s) ->
  a_status a = Started -> a_type a = Batch -> last_end a <= t ->
  exists mi,
    find_auction s' (a_id a)
    = Some (if decision s a mi then extended s a mi
            else set_status (set_matched_price a (mi_price mi)) (settled_st a))
    /\ st_mlen s' (a_id a) = Z.of_nat (length (mi_matched mi)).
Proof.
  intros I H Ha St Ty Due. destruct (ChkSettle.block_view_holds s t orc s' a I H Ha) as (x & V).
  pose proof (ChkSettle.bv_chosen V) as C.
  destruct C as [C|C _|_ _ C|mi _ _ _ _|C]; try congruence; [rewrite St in C; lia|].
  exists mi. rewrite (ChkSettle.bv_find V), (ChkSettle.bv_mlen V).
  destruct (decision s a mi); split; reflexivity.
Qed.

Theorem c13_ok_model s o : Inv s -> c13_ok (model_trans s o) = true.
Proof.
  intros I. pose proof (Inv_ghost_reset s I) as I0. rewrite FixedFacts.model_trans_eq. cbv zeta.
  assert (W : forall a', In a' (st_auctions (snd (step (ghost_reset s) o))) -> auction_wf a').
  { apply Forall_forall. exact (inv_auctions _ (Inv_step _ _ I0)). }
  unfold c13_ok. cbn [t_post t_pre t_op t_class].
  change (Checkers.is_block o) with (FrameFacts.is_block o).
  change (Checkers.block_time o) with (FrameFacts.block_time o).
  apply andb_true_iff. split.
  2:{ apply forallb_forall. intros a' Ha'. pose proof (awf_ends _ (W a' Ha')) as [H1 _].
      rewrite (ends_le_wf _ (W a' Ha')), (proj2 (Nat.leb_le _ _) H1). apply N.leb_le, (awf_maxr _ (W a' Ha')). }
  apply forallb_forall. intros [a a'] Hp. apply ChkSettle.in_paired in Hp. cbn [t_pre t_post] in Hp.
  destruct Hp as [Ha F']. cbv zeta. cbn [fst snd].
  rewrite (ends_le_wf a' (W a' (proj1 (find_auction_some _ _ _ F')))). cbn [andb].
  pose proof (model_pair s o a a' I Ha F') as R.
  pose proof (astep_ends _ _ _ _ R) as E. unfold ends_rel in E.
  change (st_params (ghost_reset s)) with (st_params s) in E.
  assert (B23 : list_eqb Z.eqb (a_ends a) (firstn (length (a_ends a)) (a_ends a')) = true
                /\ Nat.leb (length (a_ends a')) (S (length (a_ends a))) = true).
  { destruct E as [->|(-> & _)].
    - rewrite firstn_all, EqbFacts.list_eqb_Z_refl. split; [reflexivity|]. apply Nat.leb_le. lia.
    - rewrite ListFacts.firstn_len_app, EqbFacts.list_eqb_Z_refl. split; [reflexivity|]. apply Nat.leb_le.
      rewrite app_length. cbn [length]. lia. }
  destruct B23 as [-> ->]. cbn [andb].
  destruct (a_type a) eqn:Ty.
  { destruct E as [->|(_ & Hty & _)]; [apply Nat.eqb_refl|congruence]. }
  destruct (FrameFacts.is_block o && oclass_eqb (class_of (fst (step (ghost_reset s) o))) KBlockOk
            && status_eqb (a_status a) Started && (last_end a <=? FrameFacts.block_time o)) eqn:C.
  - (* a due batch auction in a successful block: the decision of the model *)
    apply andb_true_iff in C. destruct C as [C Due]. apply andb_true_iff in C. destruct C as [C St].
    apply andb_true_iff in C. destruct C as [B Ho].
    apply class_blockok_iff in Ho. apply EqbFacts.status_eqb_eq in St. apply Z.leb_le in Due.
    pose proof (step_block_ok (ghost_reset s) o B Ho) as Hb.
    destruct (batch_due_result _ _ _ _ a I0 Hb Ha St Ty Due) as (mi & Fm & Hm).
    rewrite F' in Fm. injection Fm as ->. unfold ends_eq.
    change (st_mlen s) with (st_mlen (ghost_reset s)). rewrite Hm, <- decision_if.
    destruct (decision (ghost_reset s) a mi).
    + unfold extended. cbn [a_status a_ends set_ends set_matched_price].
      change (st_params (ghost_reset s)) with (st_params s). rewrite St, EqbFacts.list_eqb_Z_refl. reflexivity.
    + cbn [a_status a_ends set_status set_matched_price]. rewrite Nat.eqb_refl, settled_settled_st. reflexivity.
  - destruct E as [->|(_ & _ & St & _ & B & Ho & Due & _)]; [apply Nat.eqb_refl|].
    exfalso. rewrite B, Ho, St in C. apply Z.leb_le in Due. rewrite Due in C. discriminate C.
Qed.

Theorem c13_count_model s o : c13_count (model_trans s o) = true.
Proof.
  rewrite FixedFacts.model_trans_eq. cbv zeta. unfold c13_count. cbn [t_op t_post t_pre].
  assert (H : FrameFacts.is_block o = false -> o <> OGenesis -> st_mlen (snd (step (ghost_reset s) o)) = st_mlen s).
  { intros B G. exact (tx_mlen _ _ _ _ (step_shape (ghost_reset s) o B G)). }
  destruct o as [m|id l|id u max|t orc|t orc k|from to d amt|ls|]; try reflexivity.
  all: rewrite H by (reflexivity || discriminate).
  all: apply forallb_forall; intros j _; apply Z.eqb_refl.
Qed.

Theorem c13_all_model s o : Inv s -> c13_all (model_trans s o) = true.
Proof. intros I. unfold c13_all. rewrite (c13_ok_model s o I), (c13_count_model s o). reflexivity. Qed.

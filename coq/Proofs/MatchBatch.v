(* sort.Search with the result-storing closure of CalculateBatchAllocation: for a probe whose "fits" verdict is
   monotone in the index, the search returns the stored result of the LEAST fitting index (if that probe matched
   something), else nothing (search_spec); over a descending list of prices and a demand antitone along them, that is the
   probe at the least price whose demand fits (first_fit).  Then calc_batch against clearing_spec (calc_batch_full: it
   succeeds, with batch_result; batch_result_cases: the two cases of a given success, read by name, the one that clears
   with the facts of its assignment; calc_batch_spec_of and calc_batch_alloc_of: the parts that Spec.clearing_spec and
   spec_alloc speak of); and, with no hypothesis on the bids, that the matched ids are distinct ids of the sweep order
   (calc_batch_static). *)
From Coq Require Import ZArith NArith List Bool Arith Lia Permutation Sorting.
From FR Require Import Dec Types Match Spec.
From FR.Proofs Require Import ListFacts MatchSweep MatchDemand.
Import ListNotations.
Open Scope nat_scope.

(* what the closure stores after a fitting probe at index h *)
Definition stored (r : mres) (h : nat) : option (nat * mres) :=
  match mr_matched r with [] => None | _ => Some (h, r) end.

Section Search.
  Variable n : nat.
  Variable probe : nat -> sweep_out.
  Hypothesis no_panic : forall h, h < n -> probe h <> SPanic.
  Hypothesis fit_mono : forall a b ra, a <= b < n -> probe a = SFit ra -> exists rb, probe b = SFit rb.
  Hypothesis empty_mono : forall a b ra rb, a <= b < n ->
    probe a = SFit ra -> probe b = SFit rb -> mr_matched ra = [] -> mr_matched rb = [].

  (* loop invariant of the binary search: everything below i exceeds, j is the most recent fitting
     probe (or n), and the stored result is the one of j -- or nothing if j matched nothing,
     because then no higher index matched anything either *)
  Definition search_inv (i j : nat) (best : option (nat * mres)) : Prop :=
    i <= j <= n /\
    (forall k, k < i -> probe k = SExceed) /\
    ((j = n /\ best = None) \/ (j < n /\ exists r, probe j = SFit r /\ best = stored r j)).

  Lemma search_run : forall fuel i j best,
    j - i <= fuel -> search_inv i j best ->
    exists best' k, search fuel probe i j best = Some best' /\ search_inv k k best'.
  Proof.
    assert (Hdone : forall i j best, j <= i -> search_inv i j best ->
              exists best' k, Some best = Some best' /\ search_inv k k best').
    { intros i j best Hji Hinv. assert (i = j) by (destruct Hinv; lia). subst j.
      exists best, i. split; [reflexivity|exact Hinv]. }
    induction fuel as [|fuel IH]; intros i j best Hf Hinv; cbn [search].
    { apply (Hdone i j); [lia|exact Hinv]. }
    destruct (Nat.ltb_spec i j) as [Hlt|Hge]; [|apply (Hdone i j); assumption].
    destruct Hinv as (Hij & Hlo & Hhi).
    set (h := (i + j) / 2).
    assert (Hh : i <= h < j).
    { subst h. split; [apply Nat.div_le_lower_bound; lia|apply Nat.div_lt_upper_bound; lia]. }
    destruct (probe h) as [r| |] eqn:Eh.
    - apply IH; [lia|]. split; [lia|]. split; [exact Hlo|].
      right. split; [lia|].
      exists r. split; [exact Eh|]. unfold stored.
      destruct (mr_matched r) as [|x xs] eqn:Em; [|reflexivity].
      destruct Hhi as [[_ Hb]|[Hj (rj & Ej & Hb)]]; [exact Hb|].
      rewrite Hb. unfold stored.
      rewrite (empty_mono h j r rj ltac:(lia) Eh Ej Em). reflexivity.
    - apply IH; [lia|]. split; [lia|]. split; [|exact Hhi].
      intros k Hk. destruct (Nat.lt_ge_cases k i) as [Hki|Hki]; [apply Hlo; exact Hki|].
      destruct (probe k) as [rk| |] eqn:Ek; [|reflexivity|].
      + destruct (fit_mono k h rk ltac:(lia) Ek) as [rh Erh]. congruence.
      + exfalso. apply (no_panic k ltac:(lia)). exact Ek.
    - exfalso. apply (no_panic h ltac:(lia)). exact Eh.
  Qed.

  Theorem search_spec :
    exists best, search (S n) probe 0 n None = Some best /\
      ((best = None /\ forall h, h < n -> probe h = SExceed) \/
       (exists h0 r0, h0 < n /\ probe h0 = SFit r0 /\ (forall k, k < h0 -> probe k = SExceed) /\
                      best = stored r0 h0)).
  Proof.
    destruct (search_run (S n) 0 n None ltac:(lia)) as (best & k & E & Hinv).
    { split; [lia|]. split; [intros k Hk; lia|]. left. split; reflexivity. }
    exists best. split; [exact E|]. destruct Hinv as (_ & Hlo & [[Hk Hb]|[Hk (r & Er & Hb)]]).
    - left. subst k. split; assumption.
    - right. exists k, r. repeat split; assumption.
  Qed.
End Search.

Open Scope Z_scope.

Opaque P.

Lemma distinct_prices_cons2 b b' l :
  distinct_prices (b :: b' :: l) =
  if b_price b =? b_price b' then distinct_prices (b' :: l) else b_price b :: distinct_prices (b' :: l).
Proof. reflexivity. Qed.

Lemma prices_desc_cons b l :
  prices_desc (b :: l) = match l with [] => true | b' :: _ => (b_price b' <=? b_price b) && prices_desc l end.
Proof. destruct l; reflexivity. Qed.

Lemma prices_desc_head l : forall b,
  prices_desc (b :: l) = true -> forall x, In x l -> b_price x <= b_price b.
Proof.
  induction l as [|b' l IH]; intros b H x Hx; [destruct Hx|].
  rewrite prices_desc_cons in H. apply andb_prop in H. destruct H as [H1 H2]. apply Z.leb_le in H1.
  destruct Hx as [<-|Hx]; [exact H1|]. specialize (IH b' H2 x Hx). lia.
Qed.

Lemma distinct_prices_in l x : In x (distinct_prices l) <-> In x (map b_price l).
Proof.
  induction l as [|b l IH]; [reflexivity|].
  destruct l as [|b' l]; [reflexivity|].
  rewrite distinct_prices_cons2. change (map b_price (b :: b' :: l)) with (b_price b :: map b_price (b' :: l)).
  destruct (Z.eqb_spec (b_price b) (b_price b')) as [E|NE].
  - rewrite IH. split; [intros H; right; exact H|]. intros [<-|H]; [|exact H].
    rewrite E. left. reflexivity.
  - cbn [In]. rewrite IH. reflexivity.
Qed.

Lemma distinct_prices_sorted l : prices_desc l = true -> StronglySorted Z.gt (distinct_prices l).
Proof.
  induction l as [|b l IH]; intros H; [constructor|].
  destruct l as [|b' l]; [cbn [distinct_prices]; constructor; constructor|].
  rewrite distinct_prices_cons2. pose proof H as H'.
  rewrite prices_desc_cons in H. apply andb_prop in H. destruct H as [H1 H2]. apply Z.leb_le in H1.
  specialize (IH H2).
  destruct (Z.eqb_spec (b_price b) (b_price b')) as [E|NE]; [exact IH|].
  constructor; [exact IH|]. apply Forall_forall. intros y Hy. apply distinct_prices_in in Hy.
  apply in_map_iff in Hy. destruct Hy as (x & <- & Hx).
  pose proof (prices_desc_head _ _ H' x Hx). destruct Hx as [<-|Hx]; [lia|].
  pose proof (prices_desc_head _ _ H2 x Hx). lia.
Qed.

(* the price probed by index h: lowest price first *)
Definition price_at (prices : list Z) (h : nat) : Z := nth (length prices - 1 - h) prices 0.

Lemma price_at_mono prices h h' :
  StronglySorted Z.gt prices -> (h <= h' < length prices)%nat -> price_at prices h <= price_at prices h'.
Proof.
  intros HS Hh. unfold price_at. destruct (Nat.eq_dec h h') as [->|NE]; [lia|].
  pose proof (sorted_gt_nth prices HS (length prices - 1 - h') (length prices - 1 - h) ltac:(lia)). lia.
Qed.

Lemma price_at_in prices h : (h < length prices)%nat -> In (price_at prices h) prices.
Proof. intros Hh. unfold price_at. apply nth_In. lia. Qed.

Lemma price_at_ex prices q : In q prices -> exists h, (h < length prices)%nat /\ price_at prices h = q.
Proof.
  intros Hq. destruct (In_nth prices q 0 Hq) as (k & Hk & E).
  exists (length prices - 1 - k)%nat. split; [lia|]. unfold price_at.
  replace (length prices - 1 - (length prices - 1 - k))%nat with k by lia. exact E.
Qed.

(* what a probe at a price where the demand is d says *)
Definition verdict (supply d : Z) (out : sweep_out) : Prop :=
  match out with
  | SPanic => False
  | SExceed => supply < d
  | SFit r => d <= supply /\ (mr_matched r = [] <-> d = 0)
  end.

Lemma probe_post_verdict bs al order p supply out :
  probe_post bs al order p supply out -> verdict supply (total_demand bs al p) out.
Proof. destruct out as [r| |]; [|exact (fun H => H)..]. intros (H1 & _ & _ & H4 & _). split; assumption. Qed.

(* The search over the prices, lowest first, for a demand D that is antitone along them: it stops at the least price
   whose demand fits, and stores that probe unless the demand there is 0. *)
Section FirstFit.
  Variables (supply : Z) (prices : list Z) (pr : Z -> sweep_out) (D : Z -> Z).
  Hypothesis sorted : StronglySorted Z.gt prices.
  Hypothesis probes : forall q, In q prices -> verdict supply (D q) (pr q).
  Hypothesis anti : forall q q', In q prices -> In q' prices -> q <= q' -> 0 <= D q' <= D q.

  Theorem first_fit :
    exists best, search (S (length prices)) (fun h => pr (price_at prices h)) 0 (length prices) None = Some best /\
      ((forall q, In q prices -> supply < D q) -> best = None) /\
      (forall pm, In pm prices -> D pm <= supply -> (forall q, In q prices -> D q <= supply -> pm <= q) ->
         exists h r, price_at prices h = pm /\ pr pm = SFit r /\ best = if 0 <? D pm then Some (h, r) else None).
  Proof.
    set (n := length prices). set (probe := fun h => pr (price_at prices h)).
    assert (V : forall h, (h < n)%nat -> verdict supply (D (price_at prices h)) (probe h)).
    { intros h Hh. apply probes, price_at_in, Hh. }
    assert (A : forall x y, (x <= y < n)%nat -> 0 <= D (price_at prices y) <= D (price_at prices x)).
    { intros x y Hxy. apply anti; [apply price_at_in; fold n; lia|apply price_at_in; fold n; lia|].
      apply price_at_mono; assumption. }
    destruct (search_spec n probe) as (best & Es & Hbest).
    - intros h Hh E. specialize (V h Hh). rewrite E in V. exact V.
    - intros x y rx Hxy Ex. pose proof (V x ltac:(lia)) as Vx. pose proof (V y ltac:(lia)) as Vy. rewrite Ex in Vx.
      destruct (probe y) as [ry| |]; [exists ry; reflexivity| |destruct Vy].
      cbn [verdict] in Vx, Vy. specialize (A x y Hxy). lia.
    - intros x y rx ry Hxy Ex Ey Em. pose proof (V x ltac:(lia)) as Vx. pose proof (V y ltac:(lia)) as Vy.
      rewrite Ex in Vx. rewrite Ey in Vy. apply Vy. apply Vx in Em. specialize (A x y Hxy). lia.
    - exists best. split; [exact Es|]. split.
      + intros Hno. destruct Hbest as [[-> _]|(h0 & r0 & Hh0 & E0 & _)]; [reflexivity|].
        pose proof (V h0 Hh0) as V0. rewrite E0 in V0. specialize (Hno _ (price_at_in prices h0 Hh0)).
        cbn [verdict] in V0. lia.
      + (* h: the index of pm.  The probe there fits, so the search stopped at some h0 <= h, whose price is pm since
           pm is least *)
        intros pm Hpm Hfit Hmin. destruct (price_at_ex prices pm Hpm) as (h & Hh & Eh). fold n in Hh.
        pose proof (V h Hh) as Vh. rewrite Eh in Vh.
        destruct Hbest as [[_ Hall]|(h0 & r0 & Hh0 & E0 & Hlow & ->)].
        { rewrite (Hall h Hh) in Vh. cbn [verdict] in Vh. lia. }
        assert (Hle : (h0 <= h)%nat).
        { destruct (Nat.le_gt_cases h0 h) as [L|L]; [exact L|]. rewrite (Hlow h L) in Vh. cbn [verdict] in Vh. lia. }
        pose proof (V h0 Hh0) as V0. rewrite E0 in V0. destruct V0 as [F0 I0].
        assert (E : price_at prices h0 = pm).
        { pose proof (price_at_mono prices h0 h sorted ltac:(fold n; lia)) as M. rewrite Eh in M.
          specialize (Hmin _ (price_at_in prices h0 Hh0) F0). lia. }
        exists h0, r0. split; [exact E|]. subst probe. cbv beta in E0. rewrite E in E0, I0. split; [exact E0|].
        pose proof (anti pm pm Hpm Hpm ltac:(lia)) as Hnn. unfold stored.
        destruct (Z.ltb_spec 0 (D pm)) as [Hd|Hd].
        * destruct (mr_matched r0); [|reflexivity]. pose proof (proj1 I0 eq_refl). lia.
        * rewrite (proj2 I0) by lia. reflexivity.
  Qed.
End FirstFit.

Definition empty_mres : mres := {| mr_total := 0; mr_matched := []; mr_bidders := [] |}.

Definition mi_of (a : auction) (bs : list bid) (prices : list Z) (best : option (nat * mres)) : minfo :=
  let price := match best with Some (h, _) => price_at prices h | None => 0 end in
  let r := match best with Some (_, r) => r | None => empty_mres end in
  {| mi_price := price; mi_matched := mr_matched r; mi_total := mr_total r;
     mi_bidders := bidders_of bs;
     mi_alloc := fun u => match lookup_bidder (mr_bidders r) u with Some (m, _) => m | None => 0 end;
     mi_refund := fun u => reserved_of (a_pay_denom a) bs u -
                           match lookup_bidder (mr_bidders r) u with Some (_, p) => p | None => 0 end |}.

Lemma calc_batch_unfold a bs order al :
  calc_batch a bs order al =
  match search (S (length (distinct_prices order)))
               (fun h => match_at (price_at (distinct_prices order) h) (a_sell_amt a) order al) 0
               (length (distinct_prices order)) None with
  | None => None
  | Some best => Some (mi_of a bs (distinct_prices order) best)
  end.
Proof. reflexivity. Qed.

Lemma alloc_getb l u : match lookup_bidder l u with Some (m, _) => m | None => 0 end = fst (getb l u).
Proof. unfold getb. destruct (lookup_bidder l u) as [[m q]|]; reflexivity. Qed.
Lemma paid_getb l u : match lookup_bidder l u with Some (_, q) => q | None => 0 end = snd (getb l u).
Proof. unfold getb. destruct (lookup_bidder l u) as [[m q]|]; reflexivity. Qed.

Definition batch_asg (order : list bid) (al : list allowed) (p : Z) : list (bid * Z) :=
  assign p (filter (fun b => p <=? b_price b) order) (cap_of al).

Definition batch_result (a : auction) (bs order : list bid) (al : list allowed) (mi : minfo) : Prop :=
  mi_bidders mi = bidders_of bs /\
  match clearing_spec bs al (a_sell_amt a) with
  | Some p =>
      In p (map b_price bs) /\ 0 < total_demand bs al p <= a_sell_amt a /\
      mi_price mi = p /\ mi_total mi = total_demand bs al p /\
      mi_matched mi = matched_ids (batch_asg order al p) /\ mi_matched mi <> [] /\
      (forall u, mi_alloc mi u = demand_of bs (cap_of al u) u p) /\
      (forall u, mi_refund mi u = reserved_of (a_pay_denom a) bs u - paid_in p u (batch_asg order al p))
  | None =>
      mi_price mi = 0 /\ mi_total mi = 0 /\ mi_matched mi = [] /\ (forall u, mi_alloc mi u = 0) /\
      (forall u, mi_refund mi u = reserved_of (a_pay_denom a) bs u)
  end.

Lemma batch_asg_facts bs al ids order p :
  book_wf bs al -> valid_order bs ids = Some order -> 0 < p -> asg_facts bs al order p (batch_asg order al p).
Proof. exact (asg_facts_hold bs al ids order p). Qed.

(* the two cases of a matching with their parts named: the auction clears at p, with what the assignment of the sweep
   at p satisfies, or nothing is matched *)
Set Implicit Arguments.
Record cleared (a : auction) (bs order : list bid) (al : list allowed) (p : Z) (mi : minfo) : Prop := {
  cl_pos : 0 < p;
  cl_asg : asg_facts bs al order p (batch_asg order al p);
  cl_demand : 0 < total_demand bs al p <= a_sell_amt a;
  cl_price : mi_price mi = p;
  cl_total : mi_total mi = total_demand bs al p;
  cl_matched : mi_matched mi = matched_ids (batch_asg order al p);
  cl_some : mi_matched mi <> [];
  cl_alloc : forall u, mi_alloc mi u = demand_of bs (cap_of al u) u p;
  cl_refund : forall u, mi_refund mi u = reserved_of (a_pay_denom a) bs u - paid_in p u (batch_asg order al p)
}.
Record uncleared (a : auction) (bs : list bid) (mi : minfo) : Prop := {
  un_price : mi_price mi = 0;
  un_total : mi_total mi = 0;
  un_matched : mi_matched mi = [];
  un_alloc : forall u, mi_alloc mi u = 0;
  un_refund : forall u, mi_refund mi u = reserved_of (a_pay_denom a) bs u
}.
Unset Implicit Arguments.

Lemma mi_of_none a bs prices :
  let mi := mi_of a bs prices None in
  mi_price mi = 0 /\ mi_total mi = 0 /\ mi_matched mi = [] /\ (forall u, mi_alloc mi u = 0) /\
  (forall u, mi_refund mi u = reserved_of (a_pay_denom a) bs u).
Proof.
  cbv zeta. unfold mi_of. cbn [mi_price mi_total mi_matched mi_alloc mi_refund empty_mres
                               mr_total mr_matched mr_bidders lookup_bidder].
  repeat split; intros; lia.
Qed.

Lemma clearing_spec_cases bs al supply :
  (clearing_spec bs al supply = None /\ forall q, In q (map b_price bs) -> supply < total_demand bs al q) \/
  exists pm, In pm (map b_price bs) /\ total_demand bs al pm <= supply /\
             (forall q, In q (map b_price bs) -> total_demand bs al q <= supply -> pm <= q) /\
             clearing_spec bs al supply = if 0 <? total_demand bs al pm then Some pm else None.
Proof.
  unfold clearing_spec.
  destruct (filter (fun p => total_demand bs al p <=? supply) (map b_price bs)) as [|p0 r] eqn:Ef.
  - left. split; [reflexivity|]. intros q Hq.
    apply Z.leb_gt. apply (proj1 (filter_nil_iff _ _) Ef q Hq).
  - right. destruct (fold_min_spec r p0) as [Hin Hmin]. exists (fold_left Z.min r p0).
    rewrite <- Ef in Hin, Hmin. apply filter_In in Hin. destruct Hin as [H1 H2]. apply Z.leb_le in H2.
    split; [exact H1|]. split; [exact H2|]. split; [|reflexivity].
    intros q Hq Hf. apply Hmin. apply filter_In. split; [exact Hq|apply Z.leb_le; exact Hf].
Qed.

Lemma clearing_spec_some bs al supply p :
  clearing_spec bs al supply = Some p ->
  In p (map b_price bs) /\ 0 < total_demand bs al p <= supply /\
  forall q, In q (map b_price bs) -> total_demand bs al q <= supply -> p <= q.
Proof.
  destruct (clearing_spec_cases bs al supply) as [[Ec _]|(pm & Hpm & Hfit & Hmin & Ec)]; rewrite Ec; [discriminate|].
  destruct (Z.ltb_spec 0 (total_demand bs al pm)) as [Hd|Hd]; [|discriminate].
  intros H. inversion H; subst p. split; [exact Hpm|]. split; [lia|exact Hmin].
Qed.

Theorem calc_batch_full a bs ids order al :
  book_wf bs al -> valid_order bs ids = Some order -> 0 <= a_sell_amt a ->
  exists mi, calc_batch a bs order al = Some mi /\ batch_result a bs order al mi.
Proof.
  intros WF VO Hs.
  pose proof (valid_order_perm bs ids order VO) as Pm. pose proof (wf_amt_nonneg _ _ WF) as Hamt.
  set (supply := a_sell_amt a) in *. set (prices := distinct_prices order).
  assert (Hbp : forall q, In q prices <-> In q (map b_price bs)).
  { intros q. subst prices. rewrite distinct_prices_in. split; apply Permutation_in, Permutation_map.
    - exact Pm.
    - apply Permutation_sym. exact Pm. }
  assert (Hpos : forall q, In q prices -> 0 < q) by (intros q Hq; apply (wf_price_in bs al q WF), Hbp, Hq).
  pose proof (fun q Hq => match_at_spec bs al ids order q supply WF VO (Hpos q Hq) Hs) as HB.
  destruct (first_fit supply prices (fun q => match_at q supply order al) (total_demand bs al))
    as (best & Es & Hnone & Hsome).
  - apply distinct_prices_sorted, (valid_order_sorted bs ids order VO).
  - intros q Hq. apply (probe_post_verdict bs al order), HB, Hq.
  - intros q q' Hq Hq' Hle. split; [apply (total_demand_nonneg bs al q' Hamt (wf_al_pos _ _ WF)), Hpos, Hq'|].
    apply total_demand_antitone; [exact Hamt|]. split; [apply Hpos, Hq|exact Hle].
  - rewrite calc_batch_unfold. fold prices supply. rewrite Es.
    exists (mi_of a bs prices best). split; [reflexivity|]. split; [reflexivity|]. fold supply.
    destruct (clearing_spec_cases bs al supply) as [[Ec Hno]|(pm & Hpm & Hfit & Hmin & Ec)]; rewrite Ec.
    + (* no bid price fits *)
      rewrite Hnone; [apply mi_of_none|]. intros q Hq. apply Hno, Hbp, Hq.
    + (* pm is the least bid price that fits: the search stopped at its probe *)
      apply Hbp in Hpm.
      destruct (Hsome pm Hpm Hfit (fun q Hq => Hmin q (proj1 (Hbp q) Hq))) as (h & r & Eh & Er & ->).
      specialize (HB pm Hpm). cbv beta in Er. rewrite Er in HB. destruct HB as (_ & F2 & F3 & F4 & F5).
      destruct (Z.ltb_spec 0 (total_demand bs al pm)) as [Hd|Hd]; [|apply mi_of_none].
      unfold mi_of. cbn [mi_price mi_total mi_matched mi_alloc mi_refund]. rewrite Eh.
      split; [apply Hbp, Hpm|]. split; [lia|]. split; [reflexivity|]. split; [exact F2|].
      split; [exact F3|]. split; [intros C; apply F4 in C; lia|]. split.
      * intros u. rewrite alloc_getb, F5. reflexivity.
      * intros u. rewrite paid_getb, F5. reflexivity.
Qed.

Lemma calc_batch_result a bs ids order al mi :
  book_wf bs al -> valid_order bs ids = Some order -> 0 <= a_sell_amt a ->
  calc_batch a bs order al = Some mi -> batch_result a bs order al mi.
Proof.
  intros WF VO Hs Hc. destruct (calc_batch_full a bs ids order al WF VO Hs) as (mi' & E & H).
  rewrite Hc in E. inversion E; subst mi'. exact H.
Qed.

Lemma batch_result_cases a bs ids order al mi :
  book_wf bs al -> valid_order bs ids = Some order -> 0 <= a_sell_amt a ->
  calc_batch a bs order al = Some mi ->
  (exists p, clearing_spec bs al (a_sell_amt a) = Some p /\ cleared a bs order al p mi) \/
  (clearing_spec bs al (a_sell_amt a) = None /\ uncleared a bs mi).
Proof.
  intros WF VO Hs Hc. destruct (calc_batch_result a bs ids order al mi WF VO Hs Hc) as (_ & H).
  destruct (clearing_spec bs al (a_sell_amt a)) as [p|].
  - left. exists p. split; [reflexivity|]. destruct H as (H1 & H2 & H3 & H4 & H5 & H6 & H7 & H8).
    pose proof (wf_price_in bs al p WF H1) as Hp.
    constructor; try assumption. exact (batch_asg_facts bs al ids order p WF VO Hp).
  - right. split; [reflexivity|]. destruct H as (H1 & H2 & H3 & H4 & H5). constructor; assumption.
Qed.

Lemma calc_batch_spec_of a bs ids order al mi :
  book_wf bs al -> valid_order bs ids = Some order -> 0 <= a_sell_amt a ->
  calc_batch a bs order al = Some mi ->
  match clearing_spec bs al (a_sell_amt a) with
  | Some p => mi_price mi = p /\ (forall u, mi_alloc mi u = demand_of bs (cap_of al u) u p) /\
              mi_matched mi <> []
  | None => mi_price mi = 0 /\ (forall u, mi_alloc mi u = 0) /\ mi_matched mi = [] /\
            (forall u, mi_refund mi u = reserved_of (a_pay_denom a) bs u)
  end.
Proof.
  intros WF VO Hs Hc.
  destruct (batch_result_cases a bs ids order al mi WF VO Hs Hc) as [(p & -> & C)|(-> & U)].
  - split; [exact (cl_price C)|]. split; [exact (cl_alloc C)|exact (cl_some C)].
  - split; [exact (un_price U)|]. split; [exact (un_alloc U)|]. split; [exact (un_matched U)|exact (un_refund U)].
Qed.

Lemma calc_batch_alloc_of a bs ids order al mi :
  book_wf bs al -> valid_order bs ids = Some order -> 0 <= a_sell_amt a ->
  calc_batch a bs order al = Some mi -> forall u, mi_alloc mi u = spec_alloc bs al (a_sell_amt a) u.
Proof.
  intros WF VO Hs Hc u. pose proof (calc_batch_spec_of a bs ids order al mi WF VO Hs Hc) as H. unfold spec_alloc.
  destruct (clearing_spec bs al (a_sell_amt a)) as [p|]; apply H.
Qed.

Lemma sweep_matched p supply : forall bs caps total matched byb r,
  sweep p supply bs caps total matched byb = SFit r ->
  incl (mr_matched r) (matched ++ map b_id bs)
  /\ (NoDup (matched ++ map b_id bs) -> NoDup (mr_matched r)).
Proof.
  induction bs as [|b bs IH]; cbn [sweep]; cbv zeta; intros caps total matched byb r H.
  - injection H as <-. cbn [mr_matched map]. rewrite app_nil_r. split; [apply incl_refl|auto].
  - destruct (caps (b_bidder b)) as [cap|]; [|discriminate].
    destruct (supply <? total + Z.min (bid_qty_at b p) cap); [discriminate|].
    destruct (0 <? Z.min (bid_qty_at b p) cap).
    + apply IH in H. cbn [map]. rewrite <- app_assoc in H.
      cbn [app] in H. exact H.
    + apply IH in H. destruct H as [H1 H2]. cbn [map]. split.
      * intros x Hx. apply H1 in Hx. apply in_app_or in Hx. apply in_or_app.
        destruct Hx; [left|right; right]; assumption.
      * intros ND. apply H2. eapply NoDup_remove_1. exact ND.
Qed.

Definition ids_within (order : list bid) (r : mres) : Prop :=
  NoDup (mr_matched r) /\ incl (mr_matched r) (map b_id order).

Lemma match_at_matched p supply order al r :
  NoDup (map b_id order) -> match_at p supply order al = SFit r -> ids_within order r.
Proof.
  unfold match_at. intros ND H. apply sweep_matched in H.
  cbn [app] in H. destruct H as [H1 H2]. split.
  - apply H2. apply NoDup_map_filter. exact ND.
  - intros x Hx. apply H1 in Hx. apply in_map_iff in Hx. destruct Hx as (b & <- & Hb).
    apply filter_In in Hb. apply in_map. apply Hb.
Qed.

(* search only ever stores what a probe returned as a fit, so what holds of every fit holds of its result *)
Lemma search_keeps_fits (Q : mres -> Prop) probe :
  (forall h r, probe h = SFit r -> Q r) ->
  forall fuel i j best res,
    (forall h r, best = Some (h, r) -> Q r) -> search fuel probe i j best = Some res ->
    forall h r, res = Some (h, r) -> Q r.
Proof.
  intros HP. induction fuel as [|k IH]; cbn [search]; intros i j best res HB H.
  - injection H as <-. exact HB.
  - destruct (Nat.ltb i j); [|injection H as <-; exact HB].
    destruct (probe (Nat.div (i + j) 2)) as [r0| |] eqn:E; [| |discriminate].
    + eapply IH; [|exact H]. destruct (mr_matched r0); [exact HB|].
      intros h r Hr. injection Hr as <- <-. eapply HP. exact E.
    + eapply IH; [exact HB|exact H].
Qed.

(* the matched ids are distinct ids of the sweep order whatever the bids are; only the sign of the price needs theirs *)
Lemma calc_batch_static a bs order al mi :
  calc_batch a bs order al = Some mi -> NoDup (map b_id order) ->
  NoDup (mi_matched mi) /\ incl (mi_matched mi) (map b_id order)
  /\ ((forall b, In b order -> 0 < b_price b) -> 0 <= mi_price mi).
Proof.
  rewrite calc_batch_unfold. intros H ND.
  destruct (search _ _ _ _ _) as [best|] eqn:E; [|discriminate].
  injection H as <-.
  assert (Q : forall h r, best = Some (h, r) -> ids_within order r).
  { refine (search_keeps_fits (ids_within order) _ _ _ _ _ None best _ E); [|intros h r C; discriminate C].
    intros h r. apply match_at_matched. exact ND. }
  unfold mi_of, price_at. cbn [mi_matched mi_price]. destruct best as [[h r]|].
  - destruct (Q h r eq_refl) as [Q1 Q2]. split; [exact Q1|]. split; [exact Q2|]. intros HP.
    destruct (nth_in_or_default (length (distinct_prices order) - 1 - h) (distinct_prices order) 0) as [HI | ->];
      [|lia].
    apply distinct_prices_in in HI. apply in_map_iff in HI. destruct HI as (b & <- & Hb).
    specialize (HP b Hb). lia.
  - cbn [empty_mres mr_matched]. split; [constructor|]. split; [intros x []|intros _; lia].
Qed.

Lemma search_ext fuel : forall probe probe' i j best,
  (forall h, probe h = probe' h) -> search fuel probe i j best = search fuel probe' i j best.
Proof.
  induction fuel as [|k IH]; intros probe probe' i j best Hp; [reflexivity|].
  cbn [search]. destruct (Nat.ltb i j); [|reflexivity].
  rewrite <- Hp. destruct (probe (Nat.div (i + j) 2)) as [r| |].
  - apply IH. exact Hp.
  - apply IH. exact Hp.
  - reflexivity.
Qed.

Lemma calc_batch_ext a bs order al al' :
  (forall u, caps_of al u = caps_of al' u) -> calc_batch a bs order al = calc_batch a bs order al'.
Proof.
  intros Hc. unfold calc_batch. cbv zeta.
  rewrite (search_ext _ _
    (fun h => match_at (price_at (distinct_prices order) h) (a_sell_amt a) order al')).
  - reflexivity.
  - intros h. apply match_at_ext. exact Hc.
Qed.

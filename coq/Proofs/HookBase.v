(* What the hook (C17) and allow-list (C10) proofs share.  bind_err_inv.  The tactics sproj / sproj_in: all projections
   and field updates of the state, for controlled reduction.  nobank and bankop: the bank primitives of Bank.v/Step.v
   (send, send_coins, fund_pool, pay_out) change the bank part of the state only and fail without a hook call.  resR and
   Section Reading: BeginBlocker walked once, failures included, for every statement that relates a success to the state
   before and constrains the code and trace of a failure (the readings: HookVeto.good, AllowFacts.keeps, HookBlock.quiet).
   payouts: the transfers of a payout loop (its lemmas are in Ledger).  fault_block_cases: a faulted block is the block
   itself, or E_FAULT with nothing but the clock changed (for HookVeto.fault_block_verdict: BlockWalk.step_block does not
   keep the code and the trace of a block that fails). *)
From Coq Require Import ZArith List Bool.
From FR Require Import Types Bank Match Step Model.
From FR.Proofs Require Export ResFacts.
Import ListNotations.
Open Scope Z_scope.

Lemma bind_err_inv : forall {A B} (r : res A) (f : A -> res B) c tr,
  bind r f = Err c tr -> r = Err c tr \/ exists a, r = Ok a /\ f a = Err c tr.
Proof.
  intros A B r f c tr H. destruct r as [a|c0 tr0].
  - right. exists a. split; [reflexivity | exact H].
  - left. cbn [bind] in H. congruence.
Qed.

(* all projections and field updates of the state, for controlled reduction *)
Ltac sproj :=
  cbn [st_params st_auctions st_bids st_allowed st_vqs st_aseq st_bseq st_mlen st_bal st_now
       st_listeners st_switch st_xfers st_trace
       with_auctions with_bids with_allowed with_vqs with_aseq with_bseq with_mlen with_bank
       with_now with_listeners with_trace with_params put_auction put_bid].
Ltac sproj_in H :=
  cbn [st_params st_auctions st_bids st_allowed st_vqs st_aseq st_bseq st_mlen st_bal st_now
       st_listeners st_switch st_xfers st_trace
       with_auctions with_bids with_allowed with_vqs with_aseq with_bseq with_mlen with_bank
       with_now with_listeners with_trace with_params put_auction put_bid] in H.

(* s' differs from s at most in the bank part (balances and the transfer log) *)
Record nobank (s s' : state) : Prop := {
  nb_params : st_params s' = st_params s;
  nb_auctions : st_auctions s' = st_auctions s;
  nb_bids : st_bids s' = st_bids s;
  nb_allowed : st_allowed s' = st_allowed s;
  nb_vqs : st_vqs s' = st_vqs s;
  nb_aseq : st_aseq s' = st_aseq s;
  nb_bseq : st_bseq s' = st_bseq s;
  nb_mlen : st_mlen s' = st_mlen s;
  nb_now : st_now s' = st_now s;
  nb_listeners : st_listeners s' = st_listeners s;
  nb_switch : st_switch s' = st_switch s;
  nb_trace : st_trace s' = st_trace s }.

Lemma nobank_refl : forall s, nobank s s.
Proof. intros s. constructor; reflexivity. Qed.

Lemma nobank_trans : forall s1 s2 s3, nobank s1 s2 -> nobank s2 s3 -> nobank s1 s3.
Proof. intros s1 s2 s3 [] []. constructor; congruence. Qed.

(* a bank primitive: success changes the bank part only; failure is a bank error (never a hook veto) that adds
   nothing to the trace *)
Definition bankop (s : state) (r : res state) : Prop :=
  match r with
  | Ok s' => nobank s s'
  | Err c tr => tr = st_trace s /\ (c = E_PANIC \/ c = E_FUNDS)
  end.

(* a success is R-related to the state before (p projects the state out of the value), a failure satisfies F of it *)
Definition resR {A} (R : state -> state -> Prop) (F : state -> N -> list hookcall -> Prop) (p : A -> state)
    (s : state) (r : res A) : Prop :=
  match r with Ok a => R s (p a) | Err c tr => F s c tr end.

Lemma resR_bind {A B} (R : state -> state -> Prop) (F : state -> N -> list hookcall -> Prop) (p : A -> state) (q : B -> state)
    s (r : res A) (f : A -> res B) :
  (forall s1 s2 s3, R s1 s2 -> R s2 s3 -> R s1 s3) -> (forall s s1 c tr, R s s1 -> F s1 c tr -> F s c tr) ->
  resR R F p s r -> (forall a, r = Ok a -> resR R F q (p a) (f a)) -> resR R F q s (bind r f).
Proof.
  intros Rt Fp. destruct r as [a|c tr]; cbn [bind resR]; intros Hr Hf; [|exact Hr].
  specialize (Hf a eq_refl). destruct (f a) as [b|c tr]; cbn [resR] in *; [exact (Rt _ _ _ Hr Hf)|exact (Fp _ _ _ _ Hr Hf)].
Qed.

Lemma bankop_bind : forall s r (f : state -> res state),
  bankop s r -> (forall s1, r = Ok s1 -> bankop s1 (f s1)) -> bankop s (bind r f).
Proof.
  intros s r f. apply (resR_bind nobank (fun s c tr => tr = st_trace s /\ (c = E_PANIC \/ c = E_FUNDS)) (fun x => x) (fun x => x)).
  - exact nobank_trans.
  - intros s0 s1 c tr Nb [-> C]. split; [apply (nb_trace _ _ Nb)|exact C].
Qed.

Lemma send_bankop : forall s from to d amt, bankop s (send s from to d amt).
Proof.
  intros s from to d amt. unfold send.
  destruct (amt =? 0); [apply nobank_refl|].
  destruct (amt <? 0); [split; [reflexivity | left; reflexivity]|].
  destruct (st_bal s from d <? amt); [split; [reflexivity | right; reflexivity]|].
  constructor; reflexivity.
Qed.

Lemma bankop_trace : forall s r, bankop s r ->
  match r with Ok s' => st_trace s' = st_trace s | Err _ tr => tr = st_trace s end.
Proof. intros s [s'|c tr] B; [apply (nb_trace _ _ B) | apply B]. Qed.

Lemma send_coins_bankop : forall cs s from to, bankop s (send_coins s from to cs).
Proof.
  induction cs as [|[d amt] rest IH]; intros s from to; cbn [send_coins].
  - apply nobank_refl.
  - apply bankop_bind; [apply send_bankop|]. intros s1 _. apply IH.
Qed.

Lemma fund_pool_bankop : forall s u cs, bankop s (fund_pool s u cs).
Proof. intros s u cs. apply send_coins_bankop. Qed.
Lemma pay_out_bankop : forall us s from d f, bankop s (pay_out s from d us f).
Proof.
  induction us as [|u rest IH]; intros s from d f; cbn [pay_out].
  - apply nobank_refl.
  - destruct (f u =? 0); [apply IH|].
    apply bankop_bind; [apply send_bankop|]. intros s1 _. apply IH.
Qed.

(* a store update of BeginBlocker other than the matched flags, as every reading sees it *)
Record still (s s' : state) : Prop := {
  sl_listeners : st_listeners s' = st_listeners s;
  sl_trace : st_trace s' = st_trace s;
  sl_allowed : st_allowed s' = st_allowed s;
  sl_bids : st_bids s' = st_bids s }.

(* what a reading has to say: how it composes (rd_pre: a failure after a success is a failure of the whole), and what a
   store update, the matched flags and a failure other than a veto (rd_other: it leaves the trace) are to it *)
Record reading (R : state -> state -> Prop) (F : state -> N -> list hookcall -> Prop) : Prop := {
  rd_trans : forall s1 s2 s3, R s1 s2 -> R s2 s3 -> R s1 s3;
  rd_pre : forall s s1 c tr, R s s1 -> F s1 c tr -> F s c tr;
  rd_still : forall s s', still s s' -> R s s';
  rd_flags : forall s id m, R s (set_flags s id m);
  rd_other : forall s c, N.eqb c E_HOOK = false -> F s c (st_trace s) }.

Section Reading.
  Variable R : state -> state -> Prop.
  Variable F : state -> N -> list hookcall -> Prop.
  Hypothesis RD : reading R F.
  Notation holds s r := (resR R F (fun x : state => x) s r).
  (* what the hooks are to the reading; a walk that offers none does not ask *)
  Definition hooks : Prop := forall s k args, holds s (call_hook s k args).

  Lemma res_bind s r (f : state -> res state) : holds s r -> (forall s1, r = Ok s1 -> holds s1 (f s1)) -> holds s (bind r f).
  Proof. apply resR_bind; [exact (rd_trans _ _ RD)|exact (rd_pre _ _ RD)]. Qed.
  Lemma res_pre s0 s r : R s s0 -> holds s0 r -> holds s r.
  Proof. destruct r as [a|c tr]; cbn [resR]; intros H Hr; [exact (rd_trans _ _ RD _ _ _ H Hr)|exact (rd_pre _ _ RD _ _ _ _ H Hr)]. Qed.
  Lemma res_upd s s' : st_listeners s' = st_listeners s -> st_trace s' = st_trace s -> st_allowed s' = st_allowed s ->
    st_bids s' = st_bids s -> holds s (Ok s').
  Proof. intros L T A B. apply (rd_still _ _ RD). constructor; assumption. Qed.

  Lemma bank_res s r : bankop s r -> holds s r.
  Proof.
    destruct r as [s'|c tr]; cbn [bankop].
    - intros B. apply res_upd; apply B.
    - intros [-> [-> | ->]]; apply (rd_other _ _ RD); reflexivity.
  Qed.

  Lemma apply_vesting_res s a : holds s (apply_vesting s a).
  Proof.
    unfold apply_vesting. cbv zeta.
    destruct (a_scheds a); (apply res_bind; [apply bank_res, send_bankop|]); intros s1 _; apply res_upd; reflexivity.
  Qed.

  Lemma release_loop_res : forall vs s a t, holds s (release_loop s a t vs).
  Proof.
    induction vs as [|v rest IH]; intros s a t; cbn [release_loop]; [apply res_upd; reflexivity|].
    destruct ((v_time v <=? t) && negb (v_released v)); [|apply IH].
    apply res_bind; [apply bank_res, send_bankop|]. intros s1 _. cbv zeta.
    eapply res_pre; [|apply IH]. apply (rd_still _ _ RD). destruct rest; constructor; reflexivity.
  Qed.

  Lemma allocate_res s a mi w : hooks -> holds s (allocate s a mi w).
  Proof. intros HK. unfold allocate. cbv zeta. apply res_bind; [apply HK|]. intros s1 _. apply bank_res, pay_out_bankop. Qed.

  Lemma close_fixed_res s a : hooks -> holds s (close_fixed s a).
  Proof.
    intros HK. unfold close_fixed. cbv zeta. apply res_bind; [apply allocate_res, HK|]. intros s1 _.
    apply res_bind; [apply bank_res, send_bankop|]. intros s2 _. apply apply_vesting_res.
  Qed.

  Lemma settle_batch_res s a mi : hooks -> holds s (settle_batch s a mi).
  Proof.
    intros HK. unfold settle_batch. apply res_bind; [apply allocate_res, HK|]. intros s1 _.
    apply res_bind; [apply bank_res, send_bankop|]. intros s2 _.
    apply res_bind; [apply bank_res, pay_out_bankop|]. intros s3 _. apply apply_vesting_res.
  Qed.

  Lemma extend_round_res s a : holds s (extend_round s a).
  Proof. apply res_upd; reflexivity. Qed.

  Lemma close_batch_res s orc a : hooks -> holds s (close_batch s orc a).
  Proof.
    intros HK. unfold close_batch. cbv zeta. destruct (valid_order _ _) as [order|]; [|apply (rd_other _ _ RD); reflexivity].
    destruct (calc_batch _ _ _ _) as [mi|]; [|apply (rd_other _ _ RD); reflexivity].
    apply (res_pre _ _ _ (rd_flags _ _ RD s (a_id a) (mi_matched mi))).
    repeat match goal with |- resR _ _ _ _ (if ?b then _ else _) => destruct b end;
      first [apply settle_batch_res, HK|apply extend_round_res].
  Qed.

  (* the hooks are asked only where an auction that is Started is due *)
  Lemma process_res t orc s a : (a_status a = Started -> last_end a <= t -> hooks) -> holds s (process t orc s a).
  Proof.
    intros H. unfold process. destruct (a_status a).
    - destruct (a_start a <=? t); apply res_upd; reflexivity.
    - destruct (Z.leb_spec (last_end a) t) as [L|L]; [|apply res_upd; reflexivity].
      pose proof (H eq_refl L) as HK.
      destruct (a_type a); [apply close_fixed_res, HK|apply close_batch_res, HK].
    - apply release_loop_res.
    - apply res_upd; reflexivity.
    - apply res_upd; reflexivity.
  Qed.

  Lemma process_all_res t orc : forall l s,
    (forall a, In a l -> a_status a = Started -> last_end a <= t -> hooks) -> holds s (process_all t orc s l).
  Proof.
    induction l as [|a rest IH]; intros s H; cbn [process_all]; [apply res_upd; reflexivity|].
    apply res_bind.
    - apply process_res, H. left. reflexivity.
    - intros s1 _. apply IH. intros a0 Ha0. apply H. right. exact Ha0.
  Qed.

  Lemma begin_block_res s t orc :
    (forall a, In a (st_auctions s) -> a_status a = Started -> last_end a <= t -> hooks) -> holds s (begin_block s t orc).
  Proof.
    intros H. unfold begin_block. cbv zeta. eapply res_pre; [|apply process_all_res, H].
    apply (rd_still _ _ RD). constructor; reflexivity.
  Qed.
End Reading.

(* the transfers of AllocateSellingCoin / the refund loop: one per bidder with a non-zero amount, in order *)
Definition payouts (from : addr) (d : N) (us : list N) (f : N -> Z) : list xfer :=
  map (fun u => {| x_from := from; x_to := User u; x_denom := d; x_amt := f u |})
      (filter (fun u => negb (f u =? 0)) us).

Lemma fault_block_cases : forall s t orc k,
  step s (OFaultBlock t orc k) = step s (OBlock t orc) \/
  step s (OFaultBlock t orc k) = (BlockErr E_FAULT, with_now s t).
Proof.
  intros s t orc k. cbn [step]. destruct (begin_block s t orc) as [s'|c tr]; [|left; reflexivity].
  destruct (Nat.ltb k (length (st_xfers s') - length (st_xfers s))); [right | left]; reflexivity.
Qed.

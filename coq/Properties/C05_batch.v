(* C05 (batch part): nobody is allocated more than his allowance or more than he asked for,
   and the allocations add up to the matched total, which never exceeds the supply. *)
From Coq Require Import ZArith NArith List.
From FR Require Import Dec Types Match Spec.
From FR.Proofs Require Import MatchSweep MatchDemand MatchBatch MatchConseq MatchWf MatchExamples.
From FR.Properties Require C03.
Import ListNotations.
Open Scope Z_scope.

(* asked p u bs = sum of bid_qty_at b p over all bids b of bidder u in bs;
   cap_of al u = the bidder's maximum bid amount (0 when not on the allow-list) *)
Theorem C05_batch_alloc_bounds a bs ids order al mi :
  book_wf bs al -> valid_order bs ids = Some order -> 0 <= a_sell_amt a ->
  calc_batch a bs order al = Some mi ->
  (forall u, 0 <= mi_alloc mi u <= cap_of al u) /\
  (forall u, mi_alloc mi u <= asked (mi_price mi) u bs) /\
  sumZ (map (mi_alloc mi) (bidders_of bs)) = mi_total mi /\
  0 <= mi_total mi <= a_sell_amt a.
Proof. exact (batch_alloc_bounds a bs ids order al mi). Qed.
Print Assumptions C05_batch_alloc_bounds.

(* calc_batch never fails (no nil-Int panic) on a well-formed book *)
Theorem C05_batch_no_panic a bs ids order al :
  book_wf bs al -> valid_order bs ids = Some order -> 0 <= a_sell_amt a ->
  exists mi, calc_batch a bs order al = Some mi /\ mi_bidders mi = bidders_of bs.
Proof.
  intros WF VO Hs. destruct (calc_batch_full a bs ids order al WF VO Hs) as (mi & E & Hb & _).
  exists mi. split; [exact E|exact Hb].
Qed.
Print Assumptions C05_batch_no_panic.

(* the bound by the cap is attained: bidder 1 of book 2 asks for 60 at the clearing price 2.0
   and is capped at 40 *)
Example ex2_cap_binds :
  asked (2 * P) 1 ex2_bids = 60 /\ cap_of ex2_al 1 = 40 /\
  ex2_run ex2_order_a = Some (2 * P, 73, [1; 5; 2; 3]%N, [1; 2; 3]%N, [40; 33; 0; 0], [70; 1; 40; 0]).
Proof. split; [vm_compute; reflexivity|]. split; [vm_compute; reflexivity|exact C03.ex2_code_a]. Qed.
Example ex2_hyps : book_wfb ex2_bids ex2_al = true /\ 0 <= a_sell_amt (ex_auction 80).
Proof. vm_compute. split; [reflexivity|discriminate]. Qed.

(* C06: fixed price sales are first come first served against an exact remainder.
   Proofs: Proofs/FixedFacts.v (with the acceptance theorem of PrecondFacts.v and the global invariant of InvAll.v).
   Spec.fixed_bid_precond is the documented acceptance condition as a flat conjunction:
   auction is fixed price and started; bid price = auction price; denomination is the paying or the selling one;
   bidder allow-listed and (quantities of the bidder's earlier bids + this quantity) <= allowance;
   this quantity <= published remainder; the bidder can pay the bid fee and the reservation. *)
From Coq Require Import ZArith NArith List Bool Lia.
From FR Require Import Dec Types Match Step Genesis Model Spec Checkers.
From FR.Proofs Require Import InvDefs InvAll FixedFacts ExcessExamples ExampleRuns.
From FR.Proofs Require PrecondFacts EqbFacts TxFacts.
Import ListNotations.
Open Scope Z_scope.

(* 1. a well-formed fixed price bid is accepted exactly under the documented condition (no listener vetoing) *)
Theorem C06_accept_iff : forall s up u id price d amt,
  Inv s -> 0 < price -> 0 < amt ->
  (fst (step s (OTx (MPlaceBid (AGood up u) id 1 (Some price) {| mc_denom := Some d; mc_amt := Some amt |}))) = Accepted
   <-> fixed_bid_precond s u id price d amt && no_veto s H_BeforeBidPlaced = true).
Proof.
  intros s up u id price d amt I Hp Ha. cbn [step].
  rewrite (PrecondFacts.C18_exact_proof s _ (Inv_WF s I)).
  unfold precond. cbn [check_basic check_pos check_coin mc_denom mc_amt decode_btype].
  apply Z.ltb_lt in Hp, Ha. rewrite Hp, Ha. reflexivity.
Qed.
Print Assumptions C06_accept_iff.

(* a bid of a batch type can never enter a fixed price auction (it would bypass price, remainder and allowance) *)
Theorem C06_rejects_other_types : forall s who id bt price coin a,
  Inv s -> find_auction s id = Some a -> a_type a = FixedPrice -> bt <> 1%N ->
  fst (step s (OTx (MPlaceBid who id bt price coin))) <> Accepted.
Proof. intros s who id bt price coin a _. apply fixed_rejects_other_types. Qed.
Print Assumptions C06_rejects_other_types.

(* 2. the published remainder is exact and never negative, in every reachable state *)
Theorem C06_remaining_exact : forall s, Inv s -> remaining_ok s = true.
Proof. exact remaining_exact. Qed.
Print Assumptions C06_remaining_exact.

Theorem C06_remaining_reachable : forall bal now sw p ops,
  (forall x d, 0 <= bal x d) -> coins_ok (p_cfee p) None = true -> coins_ok (p_bfee p) None = true ->
  remaining_ok (run (init_state bal now sw p) ops) = true.
Proof. intros bal now sw p ops Hb H1 H2. apply remaining_exact, Inv_reachable; assumption. Qed.
Print Assumptions C06_remaining_reachable.

Theorem C06_never_oversells : forall s a,
  Inv s -> In a (st_auctions s) -> a_type a = FixedPrice -> a_status a <> Cancelled ->
  sumZ (map (sell_amount (a_pay_denom a)) (bids_of s (a_id a))) = a_sell_amt a - a_remaining a
  /\ 0 <= a_remaining a <= a_sell_amt a.
Proof.
  intros s a I Ha Ty Hc. pose proof (inv_remaining _ I a Ha Ty) as R.
  pose proof (inv_auctions _ I) as W. unfold auctions_wf in W. rewrite Forall_forall in W.
  destruct (awf_fixed _ (W a Ha) Ty) as (_ & _ & _ & _ & Hr).
  destruct (status_eqb (a_status a) Cancelled) eqn:E.
  - apply EqbFacts.status_eqb_eq in E. contradiction.
  - split; [lia|exact Hr].
Qed.
Print Assumptions C06_never_oversells.

(* 3. earlier bids are never displaced or scaled down: the bid list of a fixed price auction only grows at its end,
   over every operation (blocks, settlement and GENESIS included) and hence over every history *)
Theorem C06_append_only : forall s o, Inv s -> fixed_appended s (snd (step s o)).
Proof. exact fixed_bids_append_only. Qed.
Print Assumptions C06_append_only.

Theorem C06_append_only_history : forall ops s, Inv s -> fixed_appended s (run s ops).
Proof.
  intros ops s I. apply (TxFacts.run_ind_all (fun s' => Inv s' /\ fixed_appended s s')); [|split; [exact I|apply fixed_appended_refl]].
  intros s1 o [I1 H]. split; [apply Inv_step, I1|exact (fixed_appended_trans _ _ _ H (fixed_bids_append_only s1 o I1))].
Qed.
Print Assumptions C06_append_only_history.

Theorem C06_bid_kept : forall s o b,
  Inv s -> In b (st_bids s) -> b_type b = BFixed -> In b (st_bids (snd (step s o))).
Proof. exact fixed_bid_kept. Qed.
Print Assumptions C06_bid_kept.

(* 4. the executable statement the driver evaluates on implementation traces holds of every model transition *)
Theorem C06_checker : forall s o, Inv s -> c06_ok (model_trans s o) = true.
Proof. exact c06_ok_model. Qed.
Print Assumptions C06_checker.

(* non-vacuity: a reachable state with an open fixed price auction (ExcessExamples.v: offered 1000 at price 1,
   bidder 2 allow-listed up to 100, one bid of 50 recorded) *)
Example C06_ex_reachable : Inv (run c01_init c01_hist1).
Proof. apply Inv_reachable; [intros [u|r a|] d; cbn; discriminate|reflexivity|reflexivity]. Qed.
(* a second bid of exactly the rest of the allowance is accepted, one unit more is refused *)
Example C06_ex_accept :
  fixed_bid_precond (run c01_init c01_hist1) 2 0 P 2 50 = true /\
  fst (step (run c01_init c01_hist1) (OTx (MPlaceBid (AGood false 2) 0 1 (Some P) (c01_coin 2 50)))) = Accepted.
Proof. rewrite !c01_hist1_eq. split; vm_compute; reflexivity. Qed.
Example C06_ex_reject :
  fixed_bid_precond (run c01_init c01_hist1) 2 0 P 2 51 = false /\
  fst (step (run c01_init c01_hist1) (OTx (MPlaceBid (AGood false 2) 0 1 (Some P) (c01_coin 2 51)))) = Rejected E_OVERMAX.
Proof. rewrite !c01_hist1_eq. split; vm_compute; reflexivity. Qed.
Example C06_ex_remaining :
  map a_remaining (st_auctions (run c01_init c01_hist1)) = [950].
Proof. rewrite !c01_hist1_eq. vm_compute. reflexivity. Qed.

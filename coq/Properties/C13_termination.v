(* C13, last clause ("... so every auction eventually settles"), and the same for the whole life of an auction (C08):
   from any state satisfying the global invariant (and vesting_pending for the second statement), with no listener
   registered and a non-negative extension period,
   a started batch auction is settled after at most a_max_round + 2 blocks whose time is late enough (a_max_round being
   the auction's own limit, at most MaxExtendedRound), and
   every auction - whatever its status, type, bids, schedule - is finished (or stays cancelled) after at most
   a_max_round + 4 such blocks.  `blocks s T n` runs n blocks at time T, each with the price-descending sweep order of
   the state it starts from (LiveFacts.natural_orc). *)
From Coq Require Import ZArith NArith List Lia.
From FR Require Import Dec Types Model.
From FR.Proofs Require Import InvDefs VestingPending Termination ExcessExamples ExampleRuns.
Import ListNotations.
Open Scope Z_scope.

Theorem C13_batch_auction_settles : forall s id a T,
  Inv s -> st_listeners s = [] -> 0 <= p_period (st_params s) ->
  find_auction s id = Some a -> a_status a = Started -> a_type a = Batch ->
  last_end a + Z.of_N (a_max_round a + 1) * (p_period (st_params s) * day_ns) <= T ->
  exists n a', (n <= N.to_nat (a_max_round a) + 2)%nat /\ find_auction (blocks s T n) id = Some a' /\ is_settled a'.
Proof.
  intros s id a T I HL Hp Fa St _ HT. apply (settle_descent T id _ s a); auto.
  - unfold rank, rounds_left. rewrite St. lia.
  - apply overdue_of_bound; [exact Hp|congruence|exact HT].
Qed.
Print Assumptions C13_batch_auction_settles.

Theorem C13_auction_eventually_terminal : forall s id a T,
  Inv s -> vesting_pending s -> st_listeners s = [] -> 0 <= p_period (st_params s) ->
  find_auction s id = Some a -> late_for s a T ->
  exists n a', (n <= N.to_nat (a_max_round a) + 4)%nat /\ find_auction (blocks s T n) id = Some a' /\ is_terminal a'.
Proof. exact auction_eventually_terminal. Qed.
Print Assumptions C13_auction_eventually_terminal.

(* non-vacuity: the open auction of ExcessExamples.v (one instalment at 400) is finished after two blocks at time 500 *)
Example C13_ex_terminates :
  map a_status (st_auctions (blocks (run c01_init c01_hist3) 500 2)) = [Finished].
Proof. rewrite !c01_hist3_eq. vm_compute. reflexivity. Qed.

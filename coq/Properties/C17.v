(* C17: hooks.  The short readings are proved here; what they read is in Proofs/HookFacts.v (dispatcher, call_hook),
   Proofs/HookVeto.v (veto means rejection: the verdict of a message, an API call, a block), Proofs/HookSites.v (call sites of
   the handlers), Proofs/HookBlock.v and Proofs/HookBlockTrace.v (BeginBlocker).
   Words: a listener is the list of hook kinds it vetoes (st_listeners s, in call order); first_veto kind ls is the position of
   the first listener that vetoes kind; calls_from i n kind args are the n calls to listeners i, i+1, ..; no_veto s kind: no listener
   of s vetoes kind.  The statements about an operation speak of the suffix by which it extends the trace: vetoed s suffix says
   that some call of it went to a listener of s that vetoes its kind, stops_at_veto s suffix that no call follows such a one.
   is_call o: o is a message or one of the two API calls (OTx, OApiAdd, OApiUpdate), the operations that commit or roll back. *)
From Coq Require Import ZArith NArith List Lia.
From FR Require Import Dec Types Match Step Model Spec Checkers.
From FR.Proofs Require Import HookBase HookFacts HookSites HookVeto HookBlock HookBlockTrace.
From FR.Proofs Require TxFacts Ledger LedgerSettle BlockWalk.
Import ListNotations.
Open Scope Z_scope.

(* closed form: all listeners when nobody vetoes, else the listeners up to and including the first vetoing one *)
Theorem C17_dispatch_closed : forall ls i kind args,
  dispatch ls i kind args =
  match first_veto kind ls with
  | None => (true, calls_from i (length ls) kind args)
  | Some k => (false, calls_from i (S k) kind args)
  end.
Proof. exact dispatch_closed. Qed.
Print Assumptions C17_dispatch_closed.

Theorem C17_dispatch_kind_args : forall ls i kind args ok cs,
  dispatch ls i kind args = (ok, cs) -> forall c, In c cs -> h_kind c = kind /\ h_args c = args.
Proof.
  intros ls i kind args ok cs H c Hc. rewrite dispatch_closed in H.
  destruct (first_veto kind ls) as [k|]; injection H as <- <-.
  - exact (calls_from_In (S k) i kind args c Hc).
  - exact (calls_from_In (length ls) i kind args c Hc).
Qed.
Print Assumptions C17_dispatch_kind_args.

Theorem C17_dispatch_listeners : forall ls i kind args ok cs,
  dispatch ls i kind args = (ok, cs) ->
  forall k c, nth_error cs k = Some c -> h_listener c = (i + N.of_nat k)%N.
Proof.
  intros ls i kind args ok cs H k c Hc. rewrite dispatch_closed in H.
  destruct (first_veto kind ls) as [k0|]; injection H as <- <-.
  - apply (calls_from_nth_inv (S k0)) in Hc as [_ ->]; reflexivity.
  - apply calls_from_nth_inv in Hc as [_ ->]; reflexivity.
Qed.
Print Assumptions C17_dispatch_listeners.

Theorem C17_dispatch_ok_iff : forall ls i kind args ok cs,
  dispatch ls i kind args = (ok, cs) ->
  (ok = true <-> forall l, In l ls -> existsb (N.eqb kind) l = false).
Proof. exact dispatch_ok_iff. Qed.
Print Assumptions C17_dispatch_ok_iff.

Theorem C17_dispatch_ok_all_once : forall ls i kind args cs,
  dispatch ls i kind args = (true, cs) ->
  length cs = length ls /\ cs = map (fun k => mkcall (i + N.of_nat k) kind args) (seq 0 (length ls)).
Proof.
  intros ls i kind args cs H. split; [eapply dispatch_ok_length; exact H|].
  rewrite <- calls_from_map. eapply dispatch_ok_calls; exact H.
Qed.
Print Assumptions C17_dispatch_ok_all_once.

Theorem C17_dispatch_veto_iff : forall ls i kind args ok cs,
  dispatch ls i kind args = (ok, cs) ->
  (ok = false <-> exists l, In l ls /\ existsb (N.eqb kind) l = true).
Proof.
  intros ls i kind args ok cs H. pose proof (dispatch_ok_iff _ _ _ _ _ _ H) as Hok. split.
  - intros ->. rewrite dispatch_closed in H.
    destruct (first_veto kind ls) as [k|] eqn:Hf; [|discriminate].
    apply first_veto_Some_inv in Hf as [[l [Hn Hl]] _]. exists l. split; [eapply nth_error_In; exact Hn | exact Hl].
  - intros [l [Hin Hl]]. destruct ok; [|reflexivity].
    rewrite (proj1 Hok eq_refl l Hin) in Hl. discriminate.
Qed.
Print Assumptions C17_dispatch_veto_iff.

Theorem C17_dispatch_stops_at_first_veto : forall ls i kind args cs,
  dispatch ls i kind args = (false, cs) ->
  exists k l, nth_error ls k = Some l /\ existsb (N.eqb kind) l = true
    /\ (forall j l', (j < k)%nat -> nth_error ls j = Some l' -> existsb (N.eqb kind) l' = false)
    /\ cs = calls_from i (S k) kind args /\ length cs = S k.
Proof.
  intros ls i kind args cs H. rewrite dispatch_closed in H.
  destruct (first_veto kind ls) as [k|] eqn:Hf; [|discriminate]. injection H as <-.
  apply first_veto_Some_inv in Hf as [[l [Hn Hl]] Hlt].
  exists k, l. repeat split; try assumption. exact (calls_from_length (S k) i kind args).
Qed.
Print Assumptions C17_dispatch_stops_at_first_veto.

Theorem C17_call_hook : forall s kind args,
  let cs := snd (dispatch (st_listeners s) 0 kind args) in
  (no_veto s kind = true -> call_hook s kind args = Ok (with_trace s (st_trace s ++ cs))) /\
  (no_veto s kind = false -> call_hook s kind args = Err E_HOOK (st_trace s ++ cs)).
Proof.
  intros s kind args. rewrite call_hook_closed, no_veto_closed, dispatch_closed.
  destruct (first_veto kind (st_listeners s)); split; intros H; try discriminate H; reflexivity.
Qed.
Print Assumptions C17_call_hook.

Theorem C17_call_hook_ok_iff : forall s kind args,
  (exists s', call_hook s kind args = Ok s') <-> no_veto s kind = true.
Proof.
  intros s kind args. exact (yields_is_ok _ _ _ (yields_hook s kind args)).
Qed.
Print Assumptions C17_call_hook_ok_iff.

Theorem C17_trace_extends : forall s o, is_call o ->
  exists suffix, st_trace (snd (step s o)) = st_trace s ++ suffix.
Proof. intros s o H. exact (vd_suffix (call_verdict s o H)). Qed.
Print Assumptions C17_trace_extends.

Theorem C17_veto_rejects : forall s o suffix,
  is_call o ->                       (* OTx m, OApiAdd, OApiUpdate *)
  st_trace (snd (step s o)) = st_trace s ++ suffix ->
  vetoed s suffix = true ->
  fst (step s o) = Rejected E_HOOK /\ snd (step s o) = with_trace s (st_trace s ++ suffix).
Proof.
  intros s o suffix Ho. apply verdict_veto, call_verdict, Ho.
Qed.
Print Assumptions C17_veto_rejects.

Theorem C17_hook_error_iff : forall s o suffix,
  is_call o -> st_trace (snd (step s o)) = st_trace s ++ suffix ->
  (vetoed s suffix = true <-> fst (step s o) = Rejected E_HOOK).
Proof. intros s o suffix Ho. exact (vd_iff (call_verdict s o Ho) suffix). Qed.
Print Assumptions C17_hook_error_iff.

Theorem C17_accepted_not_vetoed : forall s o suffix,
  is_call o -> st_trace (snd (step s o)) = st_trace s ++ suffix ->
  fst (step s o) = Accepted -> vetoed s suffix = false.
Proof.
  intros s o suffix Ho Hs Ha. apply (verdict_clean (call_verdict s o Ho) Hs). rewrite Ha. discriminate.
Qed.
Print Assumptions C17_accepted_not_vetoed.

(* nothing is called after a veto *)
Theorem C17_stops_at_veto : forall s o suffix,
  is_call o -> st_trace (snd (step s o)) = st_trace s ++ suffix -> stops_at_veto s suffix = true.
Proof. intros s o suffix Ho. exact (vd_stops (call_verdict s o Ho) suffix). Qed.
Print Assumptions C17_stops_at_veto.

Theorem C17_veto_fails_block : forall s t orc suffix,
  st_trace (snd (step s (OBlock t orc))) = st_trace s ++ suffix ->
  vetoed s suffix = true ->
  fst (step s (OBlock t orc)) = BlockErr E_HOOK
  /\ snd (step s (OBlock t orc)) = with_trace (with_now s t) (st_trace s ++ suffix).
Proof.
  intros s t orc suffix. apply verdict_veto, block_verdict.
Qed.
Print Assumptions C17_veto_fails_block.

Theorem C17_block_verdict : forall s t orc suffix,
  st_trace (snd (step s (OBlock t orc))) = st_trace s ++ suffix ->
  (vetoed s suffix = true <-> fst (step s (OBlock t orc)) = BlockErr E_HOOK)
  /\ stops_at_veto s suffix = true.
Proof.
  intros s t orc suffix H. pose proof (block_verdict s t orc) as V.
  split; [exact (vd_iff V suffix H) | exact (vd_stops V suffix H)].
Qed.
Print Assumptions C17_block_verdict.

Theorem C17_veto_fails_fault_block : forall s t orc k suffix,
  st_trace (snd (step s (OFaultBlock t orc k))) = st_trace s ++ suffix ->
  vetoed s suffix = true -> fst (step s (OFaultBlock t orc k)) = BlockErr E_HOOK.
Proof.
  intros s t orc k suffix Hs Hv. exact (proj1 (verdict_veto (fault_block_verdict s t orc k) Hs Hv)).
Qed.
Print Assumptions C17_veto_fails_fault_block.

(* per message kind (site_spec, Proofs/HookSites.v): the record stored and the calls made with its values *)
Theorem C17_sites_tx : forall s m,
  fst (step s (OTx m)) = Accepted ->
  exists c, check_basic m = Some c /\ handle s c = Ok (snd (step s (OTx m)))
            /\ site_spec s c (snd (step s (OTx m))).
Proof. exact accepted_tx_sites. Qed.
Print Assumptions C17_sites_tx.

Theorem C17_sites_api_add : forall s id l,
  fst (step s (OApiAdd id l)) = Accepted ->
  st_trace (snd (step s (OApiAdd id l))) = st_trace s ++ expected_trace s [(H_BeforeAllowedAdded, enc_entries l)].
Proof. exact accepted_api_add_sites. Qed.
Print Assumptions C17_sites_api_add.

Theorem C17_sites_api_update : forall s id u max,
  fst (step s (OApiUpdate id u max)) = Accepted ->
  exists m, max = Some m /\
    st_trace (snd (step s (OApiUpdate id u max)))
    = st_trace s ++ expected_trace s [(H_BeforeAllowedUpdated, [zN id; zN u; m])].
Proof.
  intros s id u max H. cbn [step] in *.
  apply TxFacts.commit_accepted in H. eapply api_update_sites; exact H.
Qed.
Print Assumptions C17_sites_api_update.

(* the Before hook sees a store without the auction, the After hook one with it *)
Theorem C17_create_fixed_before_store : forall s u up price sd samt pd vs start end_ s',
  create_fixed s u up price sd samt pd vs start end_ = Ok s' ->
  exists a sb sb' sa,
    call_hook sb H_BeforeFixedCreated (enc_auction_args a) = Ok sb' /\ st_auctions sb = st_auctions s /\
    sa = with_auctions sb' (st_auctions sb' ++ [a]) /\
    call_hook sa H_AfterFixedCreated (zN (a_id a) :: enc_auction_args a) = Ok s' /\
    st_auctions sa = st_auctions s ++ [a] /\ st_auctions s' = st_auctions s ++ [a] /\
    st_trace sb = st_trace s.
Proof.
  intros s u up price sd samt pd vs start end_ s' H.
  destruct (create_fixed_sites _ _ _ _ _ _ _ _ _ _ _ H) as (a & _ & _ & B & _). exists a. exact B.
Qed.
Print Assumptions C17_create_fixed_before_store.

Theorem C17_create_batch_before_store : forall s u up price minp sd samt pd vs maxr rate start end_ s',
  create_batch s u up price minp sd samt pd vs maxr rate start end_ = Ok s' ->
  exists a sb sb' sa,
    call_hook sb H_BeforeBatchCreated (enc_auction_args a) = Ok sb' /\ st_auctions sb = st_auctions s /\
    sa = with_auctions sb' (st_auctions sb' ++ [a]) /\
    call_hook sa H_AfterBatchCreated (zN (a_id a) :: enc_auction_args a) = Ok s' /\
    st_auctions sa = st_auctions s ++ [a] /\ st_auctions s' = st_auctions s ++ [a] /\
    st_trace sb = st_trace s.
Proof.
  intros s u up price minp sd samt pd vs maxr rate start end_ s' H.
  destruct (create_batch_sites _ _ _ _ _ _ _ _ _ _ _ _ _ _ H) as (a & _ & _ & B & _). exists a. exact B.
Qed.
Print Assumptions C17_create_batch_before_store.

(* BeforeAllocated: offered once before any transfer; the map's values are the amounts transferred *)
Theorem C17_allocate : forall s a mi w s',
  allocate s a mi w = Ok s' ->
  no_veto s H_BeforeAllocated = true /\
  nobank (with_trace s (st_trace s ++ all_calls s H_BeforeAllocated (alloc_args a mi w))) s' /\
  st_xfers s' = st_xfers s ++ payouts (Escrow Selling (a_id a)) (a_sell_denom a) (mi_bidders mi) (mi_alloc mi) /\
  (forall u, In u (mi_bidders mi) -> 0 <= mi_alloc mi u).
Proof.
  (* allocate is the hook, then the payment loop: its characterisation is this theorem, read off theirs *)
  intros s a mi w s' H. unfold allocate in H. cbv zeta in H.
  apply (yields_bind _ _ _ _ _ _ (yields_hook _ _ _) (Ledger.yields_pay_out _ _ _ _ _)) in H. destruct H as [[V P] ->].
  split; [exact V|]. split; [constructor; reflexivity|]. split; [reflexivity|]. apply Ledger.pays_payouts in P. apply P.
Qed.
Print Assumptions C17_allocate.

Theorem C17_pay_out : forall us s from d f s', pay_out s from d us f = Ok s' ->
  st_xfers s' = st_xfers s ++ payouts from d us f /\ (forall u, In u us -> 0 <= f u).
Proof.
  intros us s from d f s' H. apply (Ledger.yields_pay_out from d f us s) in H. destruct H as [P ->]. split; [reflexivity|].
  (* a payment that goes through is positive; the others are skipped for being zero *)
  intros u Hu. destruct (f u =? 0) eqn:E; [apply Z.eqb_eq in E; lia|].
  apply Ledger.pays_pos in P. unfold Ledger.pos_xs in P. rewrite Forall_forall in P.
  assert (K : 0 < x_amt {| x_from := from; x_to := User u; x_denom := d; x_amt := f u |}); [|cbn [x_amt] in K; lia].
  apply P. unfold payouts. apply in_map_iff. exists u. split; [reflexivity|]. apply filter_In. split; [exact Hu|rewrite E; reflexivity].
Qed.
Print Assumptions C17_pay_out.

Theorem C17_close_fixed : forall s a s',
  close_fixed s a = Ok s' ->
  let mi := calc_fixed a (bids_of s (a_id a)) in
  st_trace s' = st_trace s ++ expected_trace s [(H_BeforeAllocated, alloc_args a mi false)] /\
  exists rest, st_xfers s' = st_xfers s
      ++ payouts (Escrow Selling (a_id a)) (a_sell_denom a) (mi_bidders mi) (mi_alloc mi) ++ rest
    /\ (length rest <= 2)%nat.
Proof.
  intros s a s' H mi. rewrite LedgerSettle.close_fixed_gen in H. fold mi in H. split; [apply settle_gen_emits, H|].
  eexists. split; [rewrite (settle_gen_log _ _ _ _ _ H); reflexivity|]. cbn [app]. rewrite app_length.
  pose proof (Ledger.send_xf_length (Escrow Selling (a_id a)) (User (a_auctioneer a)) (a_sell_denom a) (LedgerSettle.unsold_of s a mi)).
  pose proof (Ledger.send_xf_length (Escrow Paying (a_id a)) (LedgerSettle.vest_dest a) (a_pay_denom a) (LedgerSettle.proceeds_of s a mi false)). lia.
Qed.
Print Assumptions C17_close_fixed.

Theorem C17_settle_batch : forall s a mi s',
  settle_batch s a mi = Ok s' ->
  st_trace s' = st_trace s ++ expected_trace s [(H_BeforeAllocated, alloc_args a mi true)] /\
  (forall u, In u (mi_bidders mi) -> 0 <= mi_alloc mi u /\ 0 <= mi_refund mi u) /\
  exists r1 r2, st_xfers s' = st_xfers s
      ++ payouts (Escrow Selling (a_id a)) (a_sell_denom a) (mi_bidders mi) (mi_alloc mi) ++ r1
      ++ payouts (Escrow Paying (a_id a)) (a_pay_denom a) (mi_bidders mi) (mi_refund mi) ++ r2
    /\ (length r1 <= 1)%nat /\ (length r2 <= 1)%nat.
Proof.
  intros s a mi s' H. rewrite LedgerSettle.settle_batch_gen in H. split; [apply settle_gen_emits, H|]. split.
  - pose proof H as H0. apply LedgerSettle.settle_gen_iff in H0. destruct H0 as [[_ P] _]. apply LedgerSettle.pays_settle_xfers in P.
    destruct P as (Pa & _ & Pr & _). intros u Hu. split; [apply Pa, Hu|apply (Pr eq_refl), Hu].
  - do 2 eexists. split; [rewrite (settle_gen_log _ _ _ _ _ H); reflexivity|]. split; apply Ledger.send_xf_length.
Qed.
Print Assumptions C17_settle_batch.

(* one auction in BeginBlocker: no call, or (only if Started and due) exactly the allocation hook *)
Theorem C17_process : forall t orc s a s',
  process t orc s a = Ok s' ->
  st_trace s' = st_trace s \/
  (a_status a = Started /\ last_end a <= t /\
   exists a' mi w, a_id a' = a_id a /\ a_sell_denom a' = a_sell_denom a /\
     st_trace s' = st_trace s ++ expected_trace s [(H_BeforeAllocated, alloc_args a' mi w)] /\
     (forall u, In u (mi_bidders mi) -> 0 <= mi_alloc mi u) /\
     exists rest, st_xfers s' = st_xfers s
        ++ payouts (Escrow Selling (a_id a)) (a_sell_denom a) (mi_bidders mi) (mi_alloc mi) ++ rest).
Proof.
  intros t orc s a s' H. destruct (process_settle_cases _ _ _ _ _ H) as [E|(mi & wr & C & P & ->)]; [left; exact E|right].
  destruct (proj1 (BlockWalk.chosen_settle_iff _ _ _ _ _ _) C) as (St & L & _). split; [exact St|]. split; [exact L|].
  exists a, mi, wr. split; [reflexivity|]. split; [reflexivity|].
  split; [exact (proj1 (act_emits t s a (BlockWalk.ASettle mi wr)))|].
  split; [apply (proj1 (LedgerSettle.pays_settle_xfers s a mi wr) (proj2 P))|].
  eexists. rewrite (Ledger.lb_xfers _ _ _ (BlockWalk.act_ledger t s a _ P)). reflexivity.
Qed.
Print Assumptions C17_process.

(* a whole successful block: one allocation hook per closing auction, for a subsequence (in store
   order) of the auctions that were Started and due; nothing else *)
Theorem C17_block_trace : forall s t orc,
  fst (step s (OBlock t orc)) = BlockOk ->
  exists hs sub,
    st_trace (snd (step s (OBlock t orc))) = st_trace s ++ expected_trace s (map alloc_hook hs) /\
    subseq sub (st_auctions s) /\ map (fun h => a_id (fst (fst h))) hs = map a_id sub /\
    Forall (fun a => a_status a = Started /\ last_end a <= t) sub.
Proof.
  intros s t orc Hok. cbn [step] in *. rewrite BlockWalk.begin_block_eq in *.
  destruct (process_all t orc (with_now s t) (st_auctions s)) as [s'|c tr] eqn:Hp;
    cbn [fst snd] in *; [|discriminate].
  apply process_all_trace in Hp as [hs [sub [Ht [Hsub [Hids Hall]]]]].
  exists hs, sub. split; [exact Ht|]. split; [exact Hsub|]. split; assumption.
Qed.
Print Assumptions C17_block_trace.

Theorem C17_no_hooks_send : forall s from to d amt, st_trace (snd (step s (OSend from to d amt))) = st_trace s.
Proof. exact send_no_hooks. Qed.
Print Assumptions C17_no_hooks_send.
Theorem C17_no_hooks_set_listeners : forall s ls, st_trace (snd (step s (OSetListeners ls))) = st_trace s.
Proof. exact set_listeners_no_hooks. Qed.
Theorem C17_no_hooks_genesis : forall s, st_trace (snd (step s OGenesis)) = st_trace s.
Proof. exact genesis_no_hooks. Qed.
Print Assumptions C17_no_hooks_genesis.
Theorem C17_no_hooks_block_not_due : forall s t orc,
  (forall a, In a (st_auctions s) -> a_status a = Started -> t < last_end a) ->
  st_trace (snd (step s (OBlock t orc))) = st_trace s.
Proof.
  intros s t orc H. cbn [step]. pose proof (begin_block_quiet s t orc H) as Q.
  (* a failed block leaves with_trace (with_now s t) tr: sproj (HookBase) reduces the projection of that term *)
  destruct (begin_block s t orc) as [s'|c tr]; cbn [snd quiet] in *; [exact Q|sproj; exact Q].
Qed.
Print Assumptions C17_no_hooks_block_not_due.
(* semantic form: a successful block in which no Started auction becomes VestingS / Finished calls no hook
   (hypothesis: auction ids are unique) *)
Theorem C17_no_hooks_block_no_settle : forall s t orc,
  NoDup (map a_id (st_auctions s)) ->
  fst (step s (OBlock t orc)) = BlockOk ->
  (forall a x, In a (st_auctions s) -> a_status a = Started ->
               find_auction (snd (step s (OBlock t orc))) (a_id a) = Some x -> settled (a_status x) = false) ->
  st_trace (snd (step s (OBlock t orc))) = st_trace s.
Proof. exact block_no_settle_no_hooks. Qed.
Print Assumptions C17_no_hooks_block_no_settle.

(* hook kind 5 is H_BeforeBidPlaced, 4 H_BeforeCanceled; a listener is the list of kinds it vetoes *)
Example ex_dispatch_veto :
  dispatch [[]; [5%N]; []] 0 5 [7; 8] = (false, [mkcall 0 5 [7; 8]; mkcall 1 5 [7; 8]]).
Proof. vm_compute. reflexivity. Qed.
Example ex_dispatch_other_kind :
  dispatch [[]; [5%N]; []] 0 4 [7] = (true, [mkcall 0 4 [7]; mkcall 1 4 [7]; mkcall 2 4 [7]]).
Proof. vm_compute. reflexivity. Qed.
Example ex_first_veto : first_veto 5 [[]; [5%N]; [5%N]] = Some 1%nat.
Proof. reflexivity. Qed.

Definition ex0 : state :=
  {| st_params := {| p_cfee := [(0%N, 5)]; p_bfee := [(0%N, 1)]; p_period := 1 |};
     st_auctions := []; st_bids := []; st_allowed := []; st_vqs := [];
     st_aseq := 1%N; st_bseq := fun _ => 0%N; st_mlen := fun _ => 0;
     st_bal := fun a _ => match a with User _ => 1000000 | _ => 0 end;
     st_now := 10; st_listeners := [[]; []; []]; st_switch := false; st_xfers := []; st_trace := [] |}.
Definition coin (d : N) (a : Z) : mcoin := {| mc_denom := Some d; mc_amt := Some a |}.
Definition ex_create : op :=
  OTx (MCreateFixed (AGood false 7) (Some (2 * P)) (coin 1 1000) (Some 2%N) [] 5 100).
Definition ex_bid : op := OTx (MPlaceBid (AGood false 8) 1 1 (Some (2 * P)) (coin 2 100)).
Definition ex2 : state := run ex0 [ex_create; OApiAdd 1 [(1%N, AGood false 8%N, Some 500)]].
(* each state is evaluated once, from the one before; the examples rewrite with these equations *)
Definition ex2_nf : state := Eval vm_compute in ex2.
Lemma ex2_eq : ex2 = ex2_nf.
Proof. vm_compute. reflexivity. Qed.
Definition ex2_bid_nf : outcome * state := Eval vm_compute in step ex2_nf ex_bid.
Lemma ex2_bid_eq : step ex2 ex_bid = ex2_bid_nf.
Proof. rewrite ex2_eq. vm_compute. reflexivity. Qed.
(* ex3: the middle listener vetoes BeforeBidPlaced and BeforeAllocated *)
Definition ex3 : state := run ex2 [OSetListeners [[]; [H_BeforeBidPlaced; H_BeforeAllocated]; []]].
Definition ex3_nf : state := Eval vm_compute in run ex2_nf [OSetListeners [[]; [H_BeforeBidPlaced; H_BeforeAllocated]; []]].
Lemma ex3_eq : ex3 = ex3_nf.
Proof. unfold ex3. rewrite ex2_eq. vm_compute. reflexivity. Qed.
Definition ex3_bid_nf : outcome * state := Eval vm_compute in step ex3_nf ex_bid.
Lemma ex3_bid_eq : step ex3 ex_bid = ex3_bid_nf.
Proof. rewrite ex3_eq. vm_compute. reflexivity. Qed.

Example ex_accepted_three_calls :
  fst (step ex2 ex_bid) = Accepted /\
  skipn (length (st_trace ex2)) (st_trace (snd (step ex2 ex_bid)))
  = [mkcall 0 5 [1; 1; 8; 1; 2 * P; 2; 100]; mkcall 1 5 [1; 1; 8; 1; 2 * P; 2; 100];
     mkcall 2 5 [1; 1; 8; 1; 2 * P; 2; 100]].
Proof. rewrite !ex2_bid_eq, !ex2_eq. vm_compute. split; reflexivity. Qed.

Example ex_veto_rejects :
  fst (step ex3 ex_bid) = Rejected E_HOOK /\
  skipn (length (st_trace ex3)) (st_trace (snd (step ex3 ex_bid)))
  = [mkcall 0 5 [1; 1; 8; 1; 2 * P; 2; 100]; mkcall 1 5 [1; 1; 8; 1; 2 * P; 2; 100]] /\
  st_bids (snd (step ex3 ex_bid)) = st_bids ex3 /\ st_xfers (snd (step ex3 ex_bid)) = st_xfers ex3 /\
  vetoed ex3 (skipn (length (st_trace ex3)) (st_trace (snd (step ex3 ex_bid)))) = true.
Proof. rewrite !ex3_bid_eq, !ex3_eq. vm_compute. repeat split; reflexivity. Qed.

(* a block closing the auction: vetoed allocation hook fails the block; without the veto three calls *)
Definition ex4 : state := snd (step ex2 ex_bid).
Definition ex4_nf : state := Eval vm_compute in snd ex2_bid_nf.
Lemma ex4_eq : ex4 = ex4_nf.
Proof. unfold ex4. rewrite ex2_bid_eq. reflexivity. Qed.
(* a step that occurs several times in a statement is named and generalised first (set, revert), so that vm_compute
   evaluates it once *)
Example ex_block_ok_three_calls :
  fst (step ex4 (OBlock 200 [])) = BlockOk /\
  length (st_trace (snd (step ex4 (OBlock 200 [])))) = (length (st_trace ex4) + 3)%nat.
Proof. rewrite !ex4_eq. set (r := step ex4_nf _). revert r. vm_compute. split; reflexivity. Qed.
Example ex_block_veto :
  let s := run ex4 [OSetListeners [[]; [H_BeforeAllocated]; []]] in
  fst (step s (OBlock 200 [])) = BlockErr E_HOOK /\
  map h_listener (skipn (length (st_trace s)) (st_trace (snd (step s (OBlock 200 []))))) = [0%N; 1%N].
Proof. rewrite !ex4_eq. intros s. set (r := step s _). revert r. revert s. vm_compute. split; reflexivity. Qed.
Example ex_block_not_due : st_trace (snd (step ex4 (OBlock 50 []))) = st_trace ex4.
Proof. rewrite !ex4_eq. vm_compute. reflexivity. Qed.
Example ex_block_no_settle_hyps :
  map a_id (st_auctions ex4) = [1%N] /\ fst (step ex4 (OBlock 50 [])) = BlockOk /\
  map a_status (st_auctions (snd (step ex4 (OBlock 50 [])))) = [Started].
Proof. rewrite !ex4_eq. set (r := step ex4_nf _). revert r. vm_compute. repeat split; reflexivity. Qed.

(* C09 (split part): keeper.ApplyVestingSchedules splits the paying reserve `total` over the
   vesting schedules: every instalment but the last is floor(total * weight), the last takes the
   rest, so the instalments are non-negative and add up to exactly `total`.
   Weights are 18-decimal fixed point (sum = P = 10^18 means sum = 1).
   In `split a total rem vs` (Step.v) the weights are applied to `total`, and `rem` is what is left of it for the
   instalments still to come, the last of which takes `rem`; ApplyVestingSchedules starts with rem = total, hence
   `split a total total vs` throughout.  `year1_ns` (Step.v) is Go's zero time in nanoseconds, the release time
   that validation takes to precede the first schedule.
   Proofs: Proofs/DecFacts.v. *)
From Coq Require Import ZArith NArith List Lia.
From FR Require Import Dec Types Bank Match Step Genesis Spec.
From FR.Proofs Require Import DecFacts.
From FR.Proofs Require LedgerSettle.
Import ListNotations.
Open Scope Z_scope.

(* validity of schedules as the model expresses it gives positive weights that sum to 1 *)
Theorem C09_valid_scheds_weights : forall vs e prev,
  scheds_ok vs e prev 0 = true ->
  Forall (fun v => 0 < s_weight v) vs /\ sumZ (map s_weight vs) = P.
Proof. exact scheds_ok_weights. Qed.
Print Assumptions C09_valid_scheds_weights.

Theorem C09_valid_scheds_weights_gen : forall vs e prev acc,
  scheds_ok vs e prev acc = true ->
  Forall (fun v => 0 < s_weight v) vs /\ acc + sumZ (map s_weight vs) = P.
Proof. exact scheds_ok_weights_gen. Qed.
Print Assumptions C09_valid_scheds_weights_gen.

(* what ValidateBasic accepts in a message is valid in the sense of scheds_ok *)
Theorem C09_checked_scheds_valid : forall ms e prev acc vs,
  check_scheds ms e prev acc = Some vs -> scheds_ok vs e prev acc = true.
Proof. exact check_scheds_ok. Qed.
Print Assumptions C09_checked_scheds_valid.

(* the instalments add up to the total (for any weights: the last instalment takes the rest) *)
Theorem C09_split_sum : forall a total vs, vs <> [] ->
  sumZ (map v_amt (split a total total vs)) = total.
Proof. intros a total vs. apply split_sum. Qed.
Print Assumptions C09_split_sum.

Theorem C09_split_amounts : forall a total vs,
  0 <= total -> Forall (fun v => 0 < s_weight v) vs ->
  map v_amt (split a total total vs) = spec_split total (map s_weight vs) 0.
Proof.
  intros a total vs Ht Hw. apply split_amounts; [exact Ht | apply Forall_pos_nonneg; exact Hw | lia].
Qed.
Print Assumptions C09_split_amounts.

Theorem C09_split_nonneg : forall a total vs,
  0 <= total -> Forall (fun v => 0 < s_weight v) vs -> sumZ (map s_weight vs) = P ->
  Forall (fun x => 0 <= v_amt x) (split a total total vs).
Proof. exact split_nonneg. Qed.
Print Assumptions C09_split_nonneg.

Theorem C09_split_times : forall a total vs,
  map v_time (split a total total vs) = map s_time vs.
Proof. intros a total vs. apply split_times. Qed.
Print Assumptions C09_split_times.

Theorem C09_split_fields : forall a total vs,
  Forall (fun x => v_released x = false /\ v_auction x = a_id a /\ v_auctioneer x = a_auctioneer a
                   /\ v_denom x = a_pay_denom a) (split a total total vs).
Proof. intros a total vs. exact (split_fields a total vs total). Qed.
Print Assumptions C09_split_fields.

Theorem C09_split_nonfinal : forall a total vs i dv d,
  0 <= total -> Forall (fun v => 0 < s_weight v) vs -> (S i < length vs)%nat ->
  v_amt (nth i (split a total total vs) dv) = total * s_weight (nth i vs d) / P.
Proof.
  intros a total vs i dv d Ht Hw Hi.
  apply split_nonfinal; [exact Ht | apply Forall_pos_nonneg; exact Hw | exact Hi].
Qed.
Print Assumptions C09_split_nonfinal.

Theorem C09_split_last : forall a total vs d, vs <> [] ->
  last (map v_amt (split a total total vs)) d
  = total - sumZ (removelast (map v_amt (split a total total vs))).
Proof. intros a total vs d Hne. apply split_last. exact Hne. Qed.
Print Assumptions C09_split_last.

(* the last instalment is at least its own share: it takes what the floors of the others leave *)
Theorem C09_split_last_ge : forall a total vs d dv,
  0 <= total -> Forall (fun v => 0 < s_weight v) vs -> sumZ (map s_weight vs) = P -> vs <> [] ->
  total * s_weight (last vs d) <= last (map v_amt (split a total total vs)) dv * P.
Proof.
  intros a total vs d dv Ht Hw HS Hne.
  apply split_last_ge; [exact Ht | apply Forall_pos_nonneg; exact Hw | exact Hne | rewrite HS; lia].
Qed.
Print Assumptions C09_split_last_ge.

Theorem C09_split_of_valid : forall a total vs e prev,
  scheds_ok vs e prev 0 = true -> 0 <= total ->
  sumZ (map v_amt (split a total total vs)) = total
  /\ map v_amt (split a total total vs) = spec_split total (map s_weight vs) 0
  /\ Forall (fun x => 0 <= v_amt x) (split a total total vs)
  /\ map v_time (split a total total vs) = map s_time vs.
Proof. exact split_of_valid. Qed.
Print Assumptions C09_split_of_valid.

Theorem C09_apply_vesting_queues : forall s a s', apply_vesting s a = Ok s' ->
  st_vqs s' = st_vqs s ++ split a (st_bal s (Escrow Paying (a_id a)) (a_pay_denom a))
                                  (st_bal s (Escrow Paying (a_id a)) (a_pay_denom a)) (a_scheds a).
Proof.
  intros s a s' H. apply LedgerSettle.apply_vesting_iff in H. destruct H as [_ ->].
  unfold LedgerSettle.vested, LedgerSettle.new_vqs. cbn [put_auction with_vqs st_vqs]. destruct (a_scheds a); reflexivity.
Qed.
Print Assumptions C09_apply_vesting_queues.

(* example: weights 0.000000000000000001 / 0.999999999999999998 / 0.000000000000000001 (year1_ns below is the time before
   every release time with which Genesis.auction_ok starts scheds_ok) *)
Definition ex_scheds : list sched :=
  [ {| s_time := 20; s_weight := 1 |}; {| s_time := 30; s_weight := P - 2 |}; {| s_time := 40; s_weight := 1 |} ].
Definition ex_auction : auction :=
  new_auction 7 FixedPrice 3 false P 0 100 1 ex_scheds 0 10 Started 100 0 0 0.
Definition ex_total : Z := 1999999999999999999.

Example ex_scheds_valid : scheds_ok ex_scheds 10 year1_ns 0 = true.
Proof. vm_compute. reflexivity. Qed.
Example ex_spec_split : spec_split ex_total (map s_weight ex_scheds) 0 = [1; 1999999999999999995; 3].
Proof. vm_compute. reflexivity. Qed.
Example ex_split_full : split ex_auction ex_total ex_total ex_scheds =
  [ {| v_auction := 7; v_time := 20; v_auctioneer := 3; v_denom := 1; v_amt := 1; v_released := false |};
    {| v_auction := 7; v_time := 30; v_auctioneer := 3; v_denom := 1; v_amt := 1999999999999999995; v_released := false |};
    {| v_auction := 7; v_time := 40; v_auctioneer := 3; v_denom := 1; v_amt := 3; v_released := false |} ].
Proof. vm_compute. reflexivity. Qed.
Example ex_split_amounts :
  map v_amt (split ex_auction ex_total ex_total ex_scheds) = [1; 1999999999999999995; 3].
Proof. rewrite ex_split_full. reflexivity. Qed.

(* C15: the genesis exported from any state satisfying the global invariant passes the module's own
   validation, and importing it yields the same auctions, bids, allow-lists, vesting instalments, counters
   and parameters.  `state_same s s'` (Proofs/GenesisImport.v): same auction list and auction counter, the same
   list of bids and of vesting instalments for every auction id, the same allow-list entry for every
   (auction, bidder) and the same maximum per bidder as the matching reads it off an auction's allow-list (ss_caps),
   the stores of bids / allowed bidders / instalments are rearrangements of each other, the same bid counter and
   matched length for every id, the same parameters, and the bank, clock, listeners, switch and ghost logs
   untouched.  Then: from a state satisfying Inv, state_same is kept by every operation (C15_step_congr), so along a history with
   no further GENESIS the re-imported state evolves as the original one would have (C15_genesis_evolves), and it
   answers every query alike (C15_genesis_queries); and the facts about the export's
   sort (C15_sort_by_perm, C15_sort_by_sorted, C15_sort_by_perm_unique) that make the exported lists canonical. *)
From Coq Require Import ZArith NArith List Bool Permutation.
From FR Require Import Types Genesis Model Checkers.
From FR.Proofs Require Import InvDefs GenesisSort GenesisRT GenesisImport GenesisInv GenesisCongrBlock
  GenesisExamples.
Import ListNotations.
Open Scope Z_scope.

Theorem C15_export_validates : forall s, Inv s -> validate (export s) = true.
Proof. exact export_validates. Qed.
Print Assumptions C15_export_validates.

Theorem C15_import_export : forall s, Inv s ->
  exists s', import s (export s) = Some s' /\ state_same s s'.
Proof. exact import_export. Qed.
Print Assumptions C15_import_export.

Theorem C15_genesis_step : forall s, Inv s ->
  exists s', step s OGenesis = (GenOk true, s') /\ state_same s s'.
Proof. exact genesis_step. Qed.
Print Assumptions C15_genesis_step.

Theorem C15_state_same_inv : forall s s', state_same s s' -> Inv s -> Inv s'.
Proof. exact state_same_inv. Qed.
Print Assumptions C15_state_same_inv.

Theorem C15_Inv_genesis : forall s, Inv s -> Inv (snd (step s OGenesis)).
Proof. exact Inv_genesis. Qed.
Print Assumptions C15_Inv_genesis.

Theorem C15_genesis_queries : forall s q, Inv s ->
  fst (step s OGenesis) = GenOk true /\ run_query (snd (step s OGenesis)) q = run_query s q.
Proof.
  intros s q I. destruct (genesis_step s I) as [s' [Hstep Hsame]]. rewrite Hstep. cbn [fst snd].
  split; [reflexivity|]. apply run_query_same; [exact Hsame|apply I].
Qed.
Print Assumptions C15_genesis_queries.

Theorem C15_find_bid_same : forall s s', state_same s s' -> forall a i, find_bid s' a i = find_bid s a i.
Proof. exact find_bid_same. Qed.
Print Assumptions C15_find_bid_same.

(* "evolves identically": state_same is a congruence for the transition function (same outcome, related
   successors; the bank, the transfer log and the hook trace are literally equal in related states) *)
Theorem C15_step_congr : forall s s' o, Inv s -> state_same s s' ->
  fst (step s o) = fst (step s' o) /\ state_same (snd (step s o)) (snd (step s' o)).
Proof. exact step_congr. Qed.
Print Assumptions C15_step_congr.

Theorem C15_step_congr_nogen : forall s s' o, o <> OGenesis -> state_same s s' ->
  fst (step s o) = fst (step s' o) /\ state_same (snd (step s o)) (snd (step s' o)).
Proof. exact step_congr_nogen. Qed.
Print Assumptions C15_step_congr_nogen.

Theorem C15_genesis_evolves : forall s ops, Inv s -> Forall (fun o => o <> OGenesis) ops ->
  fst (step s OGenesis) = GenOk true
  /\ outcomes (snd (step s OGenesis)) ops = outcomes s ops
  /\ state_same (run s ops) (run (snd (step s OGenesis)) ops).
Proof. exact genesis_evolves. Qed.
Print Assumptions C15_genesis_evolves.

Theorem C15_sort_by_perm : forall A (le : A -> A -> bool) l, Permutation (sort_by le l) l.
Proof. intros A le l. apply sort_by_perm. Qed.
Print Assumptions C15_sort_by_perm.

Theorem C15_sort_by_sorted : forall A (le : A -> A -> bool), le_total le -> le_trans le ->
  forall l, Sorted.StronglySorted (leP le) (sort_by le l).
Proof. intros A le Ht Htr l. apply sort_by_sorted; assumption. Qed.
Print Assumptions C15_sort_by_sorted.

Theorem C15_sort_by_perm_unique : forall A (le : A -> A -> bool), le_total le -> le_trans le ->
  forall l l', (forall x y, In x l -> In y l -> le x y = true -> le y x = true -> x = y) ->
  Permutation l l' -> sort_by le l = sort_by le l'.
Proof. intros A le Ht Htr l l'. apply sort_by_perm_unique; assumption. Qed.
Print Assumptions C15_sort_by_perm_unique.

(* the hypothesis is satisfiable *)
Example C15_ex_init_Inv : Inv g_init.
Proof. exact g_init_Inv. Qed.

(* g_state is reached from g_init by 12 accepted operations: auction 0 is a batch auction in its second round
   with three bids of which two are flagged, auction 1 a fixed price auction in vesting with two instalments
   (the first released); two allowed bidders each; the stores are not in export order. *)
Example C15_ex_history :
  map (fun k => fst (step (run g_init (firstn k g_ops)) (nth k g_ops OGenesis))) (seq 0 12)
  = [Accepted; Accepted; Accepted; Accepted; Accepted; Accepted; Accepted; Accepted; Accepted;
     BlockOk; BlockOk; BlockOk].
Proof. change 12%nat with (length g_ops). rewrite outcomes_nth. exact g_outs_eq. Qed.

Example C15_ex_shape :
  map (fun a => (a_type a, a_status a, length (a_ends a), length (a_scheds a))) (st_auctions g_state)
    = [(Batch, Started, 2%nat, 0%nat); (FixedPrice, VestingS, 1%nat, 2%nat)]
  /\ map (fun b => (b_auction b, b_id b, b_matched b)) (st_bids g_state)
    = [(1, 1, true); (0, 1, true); (0, 2, true); (1, 2, true); (0, 3, false)]%N
  /\ map (fun x => (al_auction x, al_bidder x)) (st_allowed g_state) = [(1, 3); (1, 2); (0, 3); (0, 2)]%N
  /\ map (fun v => (v_auction v, v_time v, v_released v)) (st_vqs g_state) = [(1%N, 400, true); (1%N, 500, false)]
  /\ map (st_mlen g_state) [0; 1; 2]%N = [2; 0; 0]
  /\ map (st_bseq g_state) [0; 1; 2]%N = [3; 2; 0]%N
  /\ g_bids (export g_state) <> st_bids g_state
  /\ g_allowed (export g_state) <> st_allowed g_state.
Proof. rewrite g_state_eq. vm_compute. repeat split; discriminate. Qed.

Example C15_ex_state_Inv : Inv g_state.
Proof. exact g_state_Inv. Qed.

Example C15_ex_valid : validate (export g_state) = true.
Proof. rewrite g_state_eq. vm_compute. reflexivity. Qed.

Example C15_ex_roundtrip :
  match import g_state (export g_state) with
  | Some s' => module_state_eqb g_state s' && balances_eqb g_state s'
  | None => false
  end = true.
Proof. rewrite g_state_eq. vm_compute. reflexivity. Qed.

(* the same per-auction data, compared literally *)
Example C15_ex_per_auction :
  option_map (fun s' => (st_auctions s', st_aseq s', map (bids_of s') [0; 1; 2]%N, map (vqs_of s') [0; 1; 2]%N,
                         map (fun a => map (find_allowed s' a) [2; 3; 4]%N) [0; 1; 2]%N,
                         map (st_bseq s') [0; 1; 2]%N, map (st_mlen s') [0; 1; 2]%N, st_params s'))
             (import g_state (export g_state))
  = Some (st_auctions g_state, st_aseq g_state, map (bids_of g_state) [0; 1; 2]%N, map (vqs_of g_state) [0; 1; 2]%N,
          map (fun a => map (find_allowed g_state a) [2; 3; 4]%N) [0; 1; 2]%N,
          map (st_bseq g_state) [0; 1; 2]%N, map (st_mlen g_state) [0; 1; 2]%N, st_params g_state).
Proof. rewrite g_state_eq. vm_compute. reflexivity. Qed.

Example C15_ex_step : fst (step g_state OGenesis) = GenOk true.
Proof. rewrite g_state_eq. vm_compute. reflexivity. Qed.

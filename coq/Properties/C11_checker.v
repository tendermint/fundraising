(* C11, checker link: the executable monitor Checkers.c11_ok (a modification is accepted exactly under
   Spec.modify_precond without a veto, rewrites price and amount of that bid only and moves exactly the increase of
   the reservation into escrow; no operation other than GENESIS removes a bid, changes its identity, or lowers its
   price, amount or reservation) accepts every transition of the model from a state satisfying the invariant.
   Proof: Proofs/Chk11.v. *)
From Coq Require Import ZArith NArith List.
From FR Require Import Dec Types Model Checkers.
From FR.Proofs Require Import InvDefs InvAll ExcessExamples Chk11.
Import ListNotations.
Open Scope Z_scope.

Theorem C11_checker : forall s o, Inv s -> oracle_ok s o -> c11_ok (model_trans s o) = true.
Proof. intros s o I _. exact (c11_ok_model s o I). Qed.
Print Assumptions C11_checker.

(* the hypothesis is satisfiable: a reachable state with a started batch auction and one worth bid of 50;
   raising the amount to 60 is accepted (10 more reserved), lowering it to 40 is rejected, the closing block
   flags the bid *)
Definition c11_hist : list op :=
  [OTx (MCreateBatch (AGood false 0) (Some P) (Some (P / 2)) (c01_coin 1 1000) (Some 2%N) [] 0 (Some (P / 10)) 50 200);
   OTx (MAddAllowed 0 0 (AGood false 2) (Some 100));
   OTx (MPlaceBid (AGood false 2) 0 2 (Some P) (c01_coin 2 50))].
Definition c11_hist_nf : state := Eval vm_compute in run c01_init c11_hist.
Lemma c11_hist_eq : run c01_init c11_hist = c11_hist_nf.
Proof. vm_compute. reflexivity. Qed.
Definition c11_raise : op := OTx (MModifyBid (AGood false 2) 0 1 (Some P) (c01_coin 2 60)).
Definition c11_lower : op := OTx (MModifyBid (AGood false 2) 0 1 (Some P) (c01_coin 2 40)).

Example C11_checker_ex_reachable : Inv (run c01_init c11_hist).
Proof. apply Inv_reachable; [intros [u|r a|] d; cbn; discriminate|reflexivity|reflexivity]. Qed.
Example C11_checker_ex_raise :
  t_class (model_trans (run c01_init c11_hist) c11_raise) = KOk
  /\ t_xfers (model_trans (run c01_init c11_hist) c11_raise)
     = [{| x_from := User 2; x_to := Escrow Paying 0; x_denom := 2; x_amt := 10 |}]
  /\ c11_ok (model_trans (run c01_init c11_hist) c11_raise) = true.
Proof. rewrite !c11_hist_eq. set (t := model_trans _ _). revert t. vm_compute. repeat split; reflexivity. Qed.
Example C11_checker_ex_lower :
  t_class (model_trans (run c01_init c11_hist) c11_lower) = KRej
  /\ c11_ok (model_trans (run c01_init c11_hist) c11_lower) = true.
Proof. rewrite !c11_hist_eq. set (t := model_trans _ _). revert t. vm_compute. split; reflexivity. Qed.
Example C11_checker_ex_block :
  t_class (model_trans (run c01_init c11_hist) (OBlock 250 [(0%N, [1%N])])) = KBlockOk
  /\ map b_matched (st_bids (t_post (model_trans (run c01_init c11_hist) (OBlock 250 [(0%N, [1%N])])))) = [true]
  /\ c11_ok (model_trans (run c01_init c11_hist) (OBlock 250 [(0%N, [1%N])])) = true.
Proof. rewrite !c11_hist_eq. set (t := model_trans _ _). revert t. vm_compute. repeat split; reflexivity. Qed.

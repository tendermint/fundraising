(* Tie of the model's extension rule (Dec.extend_rule: rate <= 1 - Quo(cur, last) with banker's rounding) to the
   library (keeper/auction.go CloseBatchAuction), over all counts cur <= 15, last in 1..14 and sixteen rates including
   the values one unit of the 18th decimal on either side of 1/3, 2/3, 1/7, 6/7; regenerated from /repo on every run. *)
From Coq Require Import ZArith NArith List.
From FR Require Import Dec Step.
From FR.Generated Require Consts.
From FR.Properties Require Import C04_table.
Import ListNotations.
Open Scope Z_scope.

Theorem C13_rule_table_agrees : forallb row_ok (rows_of [5%N]) = true.
Proof. apply rows_check_sound. vm_compute. reflexivity. Qed.
Print Assumptions C13_rule_table_agrees.
Theorem C13_rule_table_size : length (rows_of [5%N]) = (14 * 16 * 16)%nat.
Proof. vm_compute. reflexivity. Qed.

Theorem C13_consts_agree :
  Z.of_N MaxExtendedRound = Consts.max_extended_round /\ Dec.day_ns = Consts.day_ns.
Proof. split; reflexivity. Qed.
Print Assumptions C13_consts_agree.

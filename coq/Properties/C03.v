(* C03: the batch auction clears at the lowest bid price whose capped demand fits the supply;
   the matching code (sweep + binary search, any valid sweep order) agrees with the declarative
   specification clearing_spec / demand_of of Spec.v. *)
From Coq Require Import ZArith NArith List.
From FR Require Import Dec Types Match Spec.
From FR.Proofs Require Import MatchSweep MatchDemand MatchBatch MatchConseq MatchWf MatchExamples.
Import ListNotations.
Open Scope Z_scope.

(* Main theorem.  bs: the auction's bids in store order; order: the same bids in ANY valid sweep
   order; al: the allow-list; supply = a_sell_amt a.  calc_batch never panics and returns the
   specification's clearing price and allocation (or "nothing matched" with a full refund). *)
Theorem C03_calc_batch_spec a bs ids order al :
  book_wf bs al -> valid_order bs ids = Some order -> 0 <= a_sell_amt a ->
  exists mi, calc_batch a bs order al = Some mi /\
    match clearing_spec bs al (a_sell_amt a) with
    | Some p => mi_price mi = p /\ (forall u, mi_alloc mi u = demand_of bs (cap_of al u) u p) /\
                mi_matched mi <> []
    | None => mi_price mi = 0 /\ (forall u, mi_alloc mi u = 0) /\ mi_matched mi = [] /\
              (forall u, mi_refund mi u = reserved_of (a_pay_denom a) bs u)
    end.
Proof.
  intros WF VO Hs. destruct (calc_batch_full a bs ids order al WF VO Hs) as (mi & E & _).
  exists mi. split; [exact E|exact (calc_batch_spec_of a bs ids order al mi WF VO Hs E)].
Qed.
Print Assumptions C03_calc_batch_spec.

(* the same in one line: every bidder is allotted Spec.spec_alloc, his capped demand at the clearing price or 0 *)
Theorem C03_alloc_is_spec_alloc a bs ids order al :
  book_wf bs al -> valid_order bs ids = Some order -> 0 <= a_sell_amt a ->
  exists mi, calc_batch a bs order al = Some mi /\
             forall u, mi_alloc mi u = spec_alloc bs al (a_sell_amt a) u.
Proof.
  intros WF VO Hs. destruct (calc_batch_full a bs ids order al WF VO Hs) as (mi & E & _).
  exists mi. split; [exact E|exact (calc_batch_alloc_of a bs ids order al mi WF VO Hs E)].
Qed.
Print Assumptions C03_alloc_is_spec_alloc.

(* what the specification's price is: the least bid price whose demand fits, demand positive *)
Theorem C03_clearing_spec_least bs al supply p :
  clearing_spec bs al supply = Some p ->
  In p (map b_price bs) /\ 0 < total_demand bs al p <= supply /\
  forall q, In q (map b_price bs) -> total_demand bs al q <= supply -> p <= q.
Proof. exact (clearing_spec_some bs al supply p). Qed.
Print Assumptions C03_clearing_spec_least.

(* closed form of the sweep, for any list of bids in any order *)
Theorem C03_sweep_closed_form p supply U l caps cz total matched byb :
  NoDup U ->
  (forall b, In b l -> In (b_bidder b) U) ->
  (forall b, In b l -> 0 <= bid_qty_at b p) ->
  (forall u, In u U -> caps u = Some (cz u)) ->
  (forall u, 0 <= cz u) ->
  total <= supply ->
  let D := sumZ (map (fun u => Z.min (cz u) (asked p u l)) U) in
  match sweep p supply l caps total matched byb with
  | SPanic => False
  | SExceed => supply < total + D
  | SFit r =>
      total + D <= supply /\ mr_total r = total + D /\
      mr_matched r = matched ++ matched_ids (assign p l cz) /\
      (mr_matched r = matched <-> D = 0) /\
      forall u, fst (getb (mr_bidders r) u) = fst (getb byb u) + Z.min (cz u) (asked p u l)
  end.
Proof. exact (sweep_closed_form p supply U l caps cz total matched byb). Qed.
Print Assumptions C03_sweep_closed_form.

(* one probe of the search: order independent, equal to the declarative demand *)
Theorem C03_match_at_spec bs al ids order p supply :
  book_wf bs al -> valid_order bs ids = Some order -> 0 < p -> 0 <= supply ->
  let asg := assign p (filter (fun b => p <=? b_price b) order) (cap_of al) in
  match match_at p supply order al with
  | SPanic => False
  | SExceed => supply < total_demand bs al p
  | SFit r =>
      total_demand bs al p <= supply /\ mr_total r = total_demand bs al p /\
      mr_matched r = matched_ids asg /\
      (mr_matched r = [] <-> total_demand bs al p = 0) /\
      (forall u, getb (mr_bidders r) u = (demand_of bs (cap_of al u) u p, paid_in p u asg))
  end.
Proof. exact (match_at_spec bs al ids order p supply). Qed.
Print Assumptions C03_match_at_spec.

Theorem C03_total_demand_antitone bs al p p' :
  (forall b, In b bs -> 0 <= b_amt b) -> 0 < p <= p' ->
  total_demand bs al p' <= total_demand bs al p.
Proof. exact (total_demand_antitone bs al p p'). Qed.
Print Assumptions C03_total_demand_antitone.

(* the binary search with the result-storing closure *)
Theorem C03_search_spec n probe :
  (forall h, (h < n)%nat -> probe h <> SPanic) ->
  (forall a b ra, (a <= b < n)%nat -> probe a = SFit ra -> exists rb, probe b = SFit rb) ->
  (forall a b ra rb, (a <= b < n)%nat ->
     probe a = SFit ra -> probe b = SFit rb -> mr_matched ra = [] -> mr_matched rb = []) ->
  exists best, search (S n) probe 0 n None = Some best /\
    ((best = None /\ forall h, (h < n)%nat -> probe h = SExceed) \/
     (exists h0 r0, (h0 < n)%nat /\ probe h0 = SFit r0 /\
                    (forall k, (k < h0)%nat -> probe k = SExceed) /\
                    best = match mr_matched r0 with [] => None | _ => Some (h0, r0) end)).
Proof. exact (search_spec n probe). Qed.
Print Assumptions C03_search_spec.

(* valid_order: a duplicate-free rearrangement of the book with non-increasing prices (and then the bid ids of the
   book are pairwise distinct).  It also demands that equal prices come in the order of the bid ids, which this
   statement leaves out: see C14_sweep_order_unique. *)
Theorem C03_valid_order_spec bs ids order :
  valid_order bs ids = Some order ->
  Permutation.Permutation order bs /\ prices_desc order = true /\ map b_id order = ids /\ NoDup ids.
Proof. exact (valid_order_spec bs ids order). Qed.
Print Assumptions C03_valid_order_spec.

Theorem C03_matched_ids a bs ids order al mi :
  book_wf bs al -> valid_order bs ids = Some order -> 0 <= a_sell_amt a ->
  calc_batch a bs order al = Some mi ->
  NoDup (mi_matched mi) /\ incl (mi_matched mi) (map b_id bs).
Proof. intros _ VO _. exact (batch_matched_ids a bs ids order al mi VO). Qed.
Print Assumptions C03_matched_ids.

(* The books are in Proofs/MatchExamples.v.  ex_view shows of an outcome: the price, the total, the matched ids, the
   bidders, and the allocations and the refunds of the bidders listed.
   book 1, the input of defect D1 of the original code: worth 1 @ 2.0 and 10 coins @ 1.0, supply 100 *)
Example ex1_wf : book_wfb ex1_bids ex1_al = true.
Proof. vm_compute. reflexivity. Qed.
Example ex1_book_wf : book_wf ex1_bids ex1_al.
Proof. exact (book_wfb_sound _ _ ex1_wf). Qed.
Example ex1_order : valid_order ex1_bids [1; 2]%N = Some ex1_bids.
Proof. vm_compute. reflexivity. Qed.
Example ex1_spec : clearing_spec ex1_bids ex1_al 100 = Some P
                   /\ map (spec_alloc ex1_bids ex1_al 100) [1; 2; 3]%N = [1; 10; 0].
Proof.
  assert (E : clearing_spec ex1_bids ex1_al 100 = Some P) by (vm_compute; reflexivity).
  split; [exact E|]. unfold spec_alloc. rewrite E. vm_compute. reflexivity.
Qed.
Example ex1_code :
  ex_view (calc_batch (ex_auction 100) ex1_bids ex1_bids ex1_al) [1; 2; 3]%N
  = Some (P, 11, [1; 2]%N, [1; 2]%N, [1; 10; 0], [0; 0; 0]).
Proof. vm_compute. reflexivity. Qed.

(* book 2: duplicate prices, a binding cap, supply 80; of the two sweep orders with non-increasing prices only the one
   that keeps the equal-priced bids 2 and 3 in the order of their ids is valid *)
Example ex2_wf : book_wfb ex2_bids ex2_al = true.
Proof. vm_compute. reflexivity. Qed.
Example ex2_orders :
  option_map (map b_id) (valid_order ex2_bids ex2_order_a) = Some ex2_order_a /\
  valid_order ex2_bids ex2_order_b = None.
Proof. vm_compute. split; reflexivity. Qed.
Example ex2_demand :
  map (total_demand ex2_bids ex2_al) [P; 2 * P; 2 * P + P / 2; 3 * P] = [117; 73; 32; 30].
Proof. vm_compute. reflexivity. Qed.
Example ex2_spec : clearing_spec ex2_bids ex2_al 80 = Some (2 * P)
                   /\ map (spec_alloc ex2_bids ex2_al 80) [1; 2; 3; 4]%N = [40; 33; 0; 0].
Proof.
  assert (E : clearing_spec ex2_bids ex2_al 80 = Some (2 * P)) by (vm_compute; reflexivity).
  split; [exact E|]. unfold spec_alloc. rewrite E. vm_compute. reflexivity.
Qed.
Example ex2_code_a :
  ex2_run ex2_order_a = Some (2 * P, 73, [1; 5; 2; 3]%N, [1; 2; 3]%N, [40; 33; 0; 0], [70; 1; 40; 0]).
Proof. vm_compute. reflexivity. Qed.
Example ex2_code_b : ex2_run ex2_order_b = None.
Proof. vm_compute. reflexivity. Qed.
(* nothing fits: supply 20 is below the demand at every bid price *)
Example ex2_none :
  clearing_spec ex2_bids ex2_al 20 = None /\
  match valid_order ex2_bids ex2_order_a with
  | Some o => ex_view (calc_batch (ex_auction 20) ex2_bids o ex2_al) [1; 2; 3]%N
  | None => None
  end = Some (0, 0, [], [1; 2; 3]%N, [0; 0; 0], [150; 67; 40]).
Proof. vm_compute. split; reflexivity. Qed.

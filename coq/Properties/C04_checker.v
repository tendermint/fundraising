(* C04, checker link: the executable statement Checkers.c04_ok holds of every transition the model makes from a state
   satisfying the global invariant.
   Batch clause (c04_batch): at a settlement every bidder other than the auctioneer gets back - summed over ALL the
   transfers of the block out of the auction's paying escrow - a refund between 0 and what was reserved; with nothing
   received everything is refunded; otherwise  price * got <= paid * 10^18 < price * got + k * 10^18  with k the number
   of the bidder's bids flagged matched afterwards; and every flagged bid is priced at or above the published price.
   Fixed price clause (c04_fixed): an accepted fixed price bid moves exactly the reserved amount into the paying
   escrow and lowers the remainder by exactly the quantity asked for, floor/ceiling of amount and price.
   Proofs: Proofs/ChkSettle.v, Proofs/Chk05.v, Proofs/Chk04.v. *)
From Coq Require Import ZArith NArith List.
From FR Require Import Dec Types Model Checkers.
From FR.Proofs Require Import InvDefs InvAll ExcessExamples ExampleRuns ChkSettleExamples Chk04.
Import ListNotations.
Open Scope Z_scope.

Theorem C04_checker : forall s o, Inv s -> oracle_ok s o -> c04_ok (model_trans s o) = true.
Proof. intros s o I _. exact (c04_ok_model s o I). Qed.
Print Assumptions C04_checker.

(* the checker the driver evaluates for C04: c04_ok; at the settlement of a fixed price auction, delivery of exactly
   what each bid paid for (c04_delivered); at an accepted modification, exactly the additional reservation moved into
   the paying escrow (c04_modify) *)
Theorem C04_all_checker : forall s o, Inv s -> oracle_ok s o -> c04_all (model_trans s o) = true.
Proof. intros s o I _. exact (c04_all_model s o I). Qed.
Print Assumptions C04_all_checker.
Theorem C04_checker_delivered : forall s o, Inv s -> c04_delivered (model_trans s o) = true.
Proof. exact c04_delivered_model. Qed.
Print Assumptions C04_checker_delivered.

(* the two clauses separately; the oracle hypothesis is not needed *)
Theorem C04_checker_batch : forall s o, Inv s -> c04_batch (model_trans s o) = true.
Proof. exact c04_batch_model. Qed.
Print Assumptions C04_checker_batch.
Theorem C04_checker_fixed : forall s o, Inv s -> c04_fixed (model_trans s o) = true.
Proof. exact c04_fixed_model. Qed.
Print Assumptions C04_checker_fixed.

(* the hypotheses are satisfiable, and the checker is not vacuous there: a block that settles a fixed price and a
   batch auction (history of ChkSettleExamples.v: the batch auction clears at 2.0, user 2 pays 60 of 130 reserved for
   30 coins, user 3 pays 100 of 101 for 50 coins), and the acceptance of a fixed price bid *)
Example C04_checker_ex_hyps : Inv chk_state /\ oracle_ok chk_state chk_close.
Proof. split; [exact chk_state_Inv|exact chk_oracle_ok]. Qed.
Example C04_checker_ex_settles :
  let tr := model_trans chk_state chk_close in
  t_class tr = KBlockOk
  /\ map (fun p => (a_id (fst p), a_type (fst p), a_matched_price (snd p))) (settling tr)
     = [(0%N, FixedPrice, 0); (1%N, Batch, 2 * P)]
  /\ map (fun u => (received tr 1 1 u, refunded tr 1 2 u)) [2%N; 3%N] = [(30, 70); (50, 1)]
  /\ c04_ok tr = true.
Proof.
  intros tr. rewrite (c04_ok_model chk_state chk_close chk_state_Inv : c04_ok tr = true).
  revert tr. rewrite chk_state_eq. vm_compute. repeat split; reflexivity.
Qed.
Example C04_checker_ex_Inv2 : Inv (run c01_init [c01_create; c01_allow]).
Proof. apply Inv_reachable; try reflexivity; intros [u|r a|] d; cbn; discriminate. Qed.
Example C04_checker_ex_accepts :
  t_class (model_trans (run c01_init [c01_create; c01_allow]) c01_bid) = KOk
  /\ c04_ok (model_trans (run c01_init [c01_create; c01_allow]) c01_bid) = true.
Proof. split; [rewrite c01_hist0_eq; vm_compute; reflexivity|exact (c04_ok_model _ _ C04_checker_ex_Inv2)]. Qed.

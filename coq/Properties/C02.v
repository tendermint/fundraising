(* C02: no fundraising operation creates, destroys or strands coins: the balance changes it causes sum to
   zero per denomination, and the only amounts that ever leave a user's account are the advertised fee and the
   amount reserved for that user's own auction or bid.  Once an auction is finished or cancelled, the auctioneer
   has received the unsold selling coins plus all payments, every bidder has received the coins allocated to
   them plus the unused part of their reservation, the fees are in the community pool, and nothing is left in
   escrow. *)
From Coq Require Import ZArith NArith List Bool.
From FR Require Import Dec Types Match Step Genesis Model Checkers.
From FR.Proofs Require Import InvDefs VestingFacts Ledger LedgerCharges LedgerSettle LedgerChecker LedgerTerminal
     LedgerVesting.
From FR.Proofs Require InvAll LedgerSwept ChkSettle.
Import ListNotations.
Open Scope Z_scope.

(* the balance sheet is the replay of the recorded transfers: every operation (accepted, rejected,
   failing block, fault block, GENESIS) appends transfers with positive amounts to the log, and the new
   balances are the old ones with these transfers applied.  No hypothesis on the state. *)
Theorem C02_ledger : forall s o, exists xs,
  st_xfers (snd (step s o)) = st_xfers s ++ xs /\ st_bal (snd (step s o)) = apply_xfers (st_bal s) xs
  /\ Forall (fun x => 0 < x_amt x) xs.
Proof. intros s o. destruct (step_ledger_rel s o) as [xs [X B Pp]]. exists xs. repeat split; assumption. Qed.
Print Assumptions C02_ledger.

Theorem C02_ledger_run : forall s ops, exists xs,
  st_xfers (run s ops) = st_xfers s ++ xs /\ st_bal (run s ops) = apply_xfers (st_bal s) xs
  /\ Forall (fun x => 0 < x_amt x) xs.
Proof.
  intros s ops. destruct (run_ledger_rel ops s) as [xs [X B Pp]].
  exists xs. repeat split; assumption.
Qed.
Print Assumptions C02_ledger_run.

Theorem C02_step_xfers : forall s o,
  st_xfers (snd (step s o)) = st_xfers s ++ step_xfers s o
  /\ st_bal (snd (step s o)) = apply_xfers (st_bal s) (step_xfers s o)
  /\ Forall (fun x => 0 < x_amt x) (step_xfers s o).
Proof. intros s o. destruct (step_xfers_spec s o) as [X B Pp]. repeat split; assumption. Qed.
Print Assumptions C02_step_xfers.

Theorem C02_delta_is_net : forall s o a d,
  st_bal (snd (step s o)) a d - st_bal s a d = net (step_xfers s o) a d.
Proof. exact step_delta_is_net. Qed.
Print Assumptions C02_delta_is_net.

(* zero sum: over any duplicate-free set of accounts containing the endpoints of the step's transfers,
   the balances of every denomination add up to the same total before and after *)
Theorem C02_zero_sum : forall s o (A : list addr) d,
  NoDup A -> endpoints_in A (step_xfers s o) ->
  sumZ (map (fun a => st_bal (snd (step s o)) a d) A) = sumZ (map (fun a => st_bal s a d) A).
Proof. exact step_zero_sum. Qed.
Print Assumptions C02_zero_sum.

(* only the advertised amounts leave a user's account, and only when the operation is accepted *)
Theorem C02_charges : forall s o, Inv s -> forall u d,
  sum_xfers (step_xfers s o) (fun x => addr_eqb (x_from x) (User u) && N.eqb (x_denom x) d)
  = if accepted (fst (step s o)) then advertised s o u d else 0.
Proof. exact step_charges. Qed.
Print Assumptions C02_charges.

Theorem C02_advertised_is_checker : forall t u d, advertised_charge t u d = advertised (t_pre t) (t_op t) u d.
Proof. exact advertised_charge_eq. Qed.

(* the exact transfers of an accepted operation (LedgerCharges.tx_xfers): for a creation or a bid the fee to the pool,
   then the reservation into the escrow; for a modification the increase of the reservation; for a cancellation the
   selling escrow back to the auctioneer; for a plain send that send *)
Theorem C02_accepted_xfers : forall s o, Inv s -> fst (step s o) = Accepted -> step_xfers s o = tx_xfers s o.
Proof. exact step_xfers_accepted. Qed.
Print Assumptions C02_accepted_xfers.

(* anything else (rejected message, block, fault block, listeners, GENESIS) only moves coins out of escrows *)
Theorem C02_not_accepted : forall s o, fst (step s o) <> Accepted -> Forall esc_src (step_xfers s o).
Proof. exact step_not_accepted. Qed.
Print Assumptions C02_not_accepted.

(* what leaves a user account goes to the community pool or to the signer's own auction's escrow
   (creation: the new auction's selling escrow; bid: the auction's paying escrow; OSend: where the sender says) *)
Theorem C02_destinations : forall s o, Inv s -> Forall (own_dest s o) (step_xfers s o).
Proof.
  intros s o HI. destruct (accepted (fst (step s o))) eqn:Ha.
  - apply accepted_iff in Ha. rewrite (step_xfers_accepted s o HI Ha). apply tx_xfers_dest.
  - assert (Hn : fst (step s o) <> Accepted) by (intros E; rewrite E in Ha; discriminate Ha).
    apply step_not_accepted in Hn. eapply Forall_impl; [|exact Hn].
    intros x (r & id & E). unfold own_dest.
    rewrite E. exact I.
Qed.
Print Assumptions C02_destinations.

Theorem C02_settlement : forall t orc s a s' a',
  Inv s -> find_auction s (a_id a) = Some a -> a_status a = Started -> process t orc s a = Ok s' ->
  find_auction s' (a_id a) = Some a' -> (a_status a' = VestingS \/ a_status a' = Finished) ->
  exists mi wr,
    settles_with t orc s a mi wr
    /\ ledger_by s s' (settle_xfers s a mi wr)
    /\ dues s a mi wr
    /\ 0 <= unsold_of s a mi /\ 0 <= proceeds_of s a mi wr
    /\ st_bal s' (Escrow Selling (a_id a)) (a_sell_denom a) = 0
    /\ st_bal s' (Escrow Paying (a_id a)) (a_pay_denom a) = 0
    /\ (a_scheds a <> [] ->
        st_bal s' (Escrow Vesting (a_id a)) (a_pay_denom a)
        = st_bal s (Escrow Vesting (a_id a)) (a_pay_denom a) + proceeds_of s a mi wr).
Proof.
  intros t orc s a s' a' I Fa St H Fa' Hst'.
  destruct (ChkSettle.settling_step t orc s a s' a' I Fa St H Fa' Hst') as (mi & wr & L & V). exists mi, wr.
  pose proof (ChkSettle.sv_dues V) as D.
  split; [exact (ChkSettle.sv_settles V)|]. split; [exact L|]. split; [exact D|].
  (* nothing is allocated beyond the supply, and the selling escrow holds at least the supply *)
  split; [exact (ChkSettle.sv_unsold V)|].
  split; [exact (ChkSettle.sv_proceeds V)|exact (ChkSettle.sv_escrows V)].
Qed.
Print Assumptions C02_settlement.

Theorem C02_settlement_received : forall s a mi wr u,
  NoDup (mi_bidders mi) ->
  sum_xfers (settle_xfers s a mi wr) (from_to (Escrow Selling (a_id a)) (User u) (a_sell_denom a))
  = (if existsb (N.eqb u) (mi_bidders mi) then mi_alloc mi u else 0)
    + (if N.eqb (a_auctioneer a) u then unsold_of s a mi else 0)
  /\
  sum_xfers (settle_xfers s a mi wr) (from_to (Escrow Paying (a_id a)) (User u) (a_pay_denom a))
  = (if wr && existsb (N.eqb u) (mi_bidders mi) then mi_refund mi u else 0)
    + (if match a_scheds a with [] => N.eqb (a_auctioneer a) u | _ => false end then proceeds_of s a mi wr else 0).
Proof. exact settle_xfers_received. Qed.
Print Assumptions C02_settlement_received.

(* the same for a whole block: the settlement transfers of every auction the block settles, computed from the
   state at the beginning of the block, are a contiguous segment of the block's transfers *)
Theorem C02_settlement_block : forall s t orc s' a a',
  Inv s -> begin_block s t orc = Ok s' -> In a (st_auctions s) -> a_status a = Started ->
  find_auction s' (a_id a) = Some a' -> (a_status a' = VestingS \/ a_status a' = Finished) ->
  exists mi wr pre post,
    settles_with t orc s a mi wr
    /\ dues s a mi wr
    /\ 0 <= unsold_of s a mi /\ 0 <= proceeds_of s a mi wr
    /\ st_xfers s' = st_xfers s ++ pre ++ settle_xfers s a mi wr ++ post
    /\ st_bal s' (Escrow Selling (a_id a)) (a_sell_denom a) = 0
    /\ st_bal s' (Escrow Paying (a_id a)) (a_pay_denom a) = 0
    /\ (a_scheds a <> [] ->
        st_bal s' (Escrow Vesting (a_id a)) (a_pay_denom a)
        = st_bal s (Escrow Vesting (a_id a)) (a_pay_denom a) + proceeds_of s a mi wr).
Proof.
  intros s t orc s' a a' I H Ha St Fa' Hst'.
  destruct (ChkSettle.block_settlement_located s t orc s' a a' I H Ha St Fa' Hst') as (xs & mi & wr & X & V).
  destruct (ChkSettle.sv_log V) as (pre & post & -> & _). exists mi, wr, pre, post.
  pose proof (ChkSettle.sv_dues V) as D.
  split; [exact (ChkSettle.sv_settles V)|]. split; [exact D|].
  split; [exact (ChkSettle.sv_unsold V)|].
  split; [exact (ChkSettle.sv_proceeds V)|]. split; [exact X|].
  exact (ChkSettle.sv_escrows V).
Qed.
Print Assumptions C02_settlement_block.

Theorem C02_terminal : forall s a,
  Inv s -> In a (st_auctions s) -> a_status a = Finished \/ a_status a = Cancelled ->
  (forall r d, InvDefs.owed s r (a_id a) d = 0)
  /\ (forall v, In v (vqs_of s (a_id a)) -> v_released v = true)
  /\ (a_status a = Cancelled -> vqs_of s (a_id a) = [] /\ bids_of s (a_id a) = []).
Proof. exact terminal_auctions. Qed.
Print Assumptions C02_terminal.

(* the ledger invariant over the log of transfers, from the empty module state: what went from the paying
   escrow into the vesting escrow is the sum of the instalments; what left the vesting escrow went to the
   auctioneer and is the sum of the released instalments; for a Finished auction the two are equal *)
Theorem C02_vesting_ledger : forall bal now sw p ops a,
  (forall x d, 0 <= bal x d) -> coins_ok (p_cfee p) None = true -> coins_ok (p_bfee p) None = true ->
  let s := run (init_state bal now sw p) ops in
  In a (st_auctions s) ->
  let id := a_id a in
  sum_xfers (st_xfers s) (from_to (Escrow Paying id) (Escrow Vesting id) (a_pay_denom a))
  = sumZ (map v_amt (vqs_of s id))
  /\ sum_xfers (st_xfers s) (from_to (Escrow Vesting id) (User (a_auctioneer a)) (a_pay_denom a))
     = sumZ (map v_amt (filter v_released (vqs_of s id)))
  /\ (a_status a = Finished ->
      sum_xfers (st_xfers s) (from_to (Escrow Vesting id) (User (a_auctioneer a)) (a_pay_denom a))
      = sum_xfers (st_xfers s) (from_to (Escrow Paying id) (Escrow Vesting id) (a_pay_denom a))).
Proof.
  intros bal now sw p ops a Hb H1 H2 s Ha.
  exact (vesting_ledger s a (InvAll.Inv_reachable bal now sw p ops Hb H1 H2) (LI_reachable bal now sw p ops Hb H1 H2) Ha).
Qed.
Print Assumptions C02_vesting_ledger.

Theorem C02_vesting_ledger_step : forall s o, Inv s -> LI s -> LI (snd (step s o)).
Proof. apply InvAll.carried_step, LI_kept. Qed.
Print Assumptions C02_vesting_ledger_step.

Theorem C02_checker : forall s o, Inv s -> tracked s o -> c02_ok (model_trans s o) = true.
Proof. exact c02_ok_model. Qed.
Print Assumptions C02_checker.

Theorem C02_checker_untracked : forall s o, Inv s ->
  deltas_are_transfers (model_trans s o) = true /\ c02_charges (model_trans s o) = true.
Proof. intros s o I. split; [apply deltas_are_transfers_model|apply c02_charges_model, I]. Qed.
Print Assumptions C02_checker_untracked.

(* the complete executable statement evaluated on implementation traces: c02_ok (ledger and charges), c02_swept
   (whatever an operation sweeps is swept to zero), c04_batch (a batch settlement refunds what the allocation does
   not cost) and c02_vested (the vesting escrow holds its instalments in full) *)
Theorem C02_checker_all : forall s o, Inv s -> LedgerChecker.tracked s o -> c02_all (model_trans s o) = true.
Proof. exact LedgerSwept.c02_all_model. Qed.
Print Assumptions C02_checker_all.

(* the hypotheses are satisfiable: a fixed price auction with a creation fee and one vesting instalment,
   one bid with a bid fee, and the block that settles it *)
Definition ex_bal : addr -> N -> Z := fun a _ => match a with User _ => 1000000 | _ => 0 end.
Definition ex_params : params := {| p_cfee := [(0%N, 10)]; p_bfee := [(0%N, 1)]; p_period := 1 |}.
Definition ex_coin (d : N) (a : Z) : mcoin := {| mc_denom := Some d; mc_amt := Some a |}.
Definition ex_create : op :=
  OTx (MCreateFixed (AGood false 0) (Some P) (ex_coin 1 1000) (Some 2%N) [{| ms_time := 400; ms_weight := Some P |}] 50 200).
Definition ex_allow : op := OTx (MAddAllowed 0 0 (AGood false 2) (Some 100)).
Definition ex_bid : op := OTx (MPlaceBid (AGood false 2) 0 1 (Some P) (ex_coin 2 50)).
Definition ex_block : op := OBlock 250 [].
Definition ex_s : state := run (init_state ex_bal 100 true ex_params) [ex_create; ex_allow; ex_bid].

(* the states of the history evaluated once, each from the one before: the examples rewrite with these equations
   (X_eq : X = X_nf; ex_block_step gives the whole result of the settling step, since ex_block_xfers reads its outcome too) *)
Definition ex_s_nf : state := Eval vm_compute in ex_s.
Lemma ex_s_eq : ex_s = ex_s_nf.
Proof. vm_compute. reflexivity. Qed.
Definition ex_settled_nf : state := Eval vm_compute in snd (step ex_s_nf ex_block).
Lemma ex_block_step : step ex_s ex_block = (BlockOk, ex_settled_nf).
Proof. rewrite ex_s_eq. vm_compute. reflexivity. Qed.
Definition ex_released_nf : state := Eval vm_compute in snd (step ex_settled_nf (OBlock 500 [])).
Lemma ex_released_eq : snd (step (snd (step ex_s ex_block)) (OBlock 500 [])) = ex_released_nf.
Proof. rewrite ex_block_step. vm_compute. reflexivity. Qed.
Example ex_Inv : Inv ex_s.
Proof. apply InvAll.Inv_reachable; [intros [u|r a|] d; cbn; discriminate|reflexivity|reflexivity]. Qed.

(* the fee goes to the pool, the offered coins into the selling escrow, the reservation into the paying escrow *)
Example ex_history_xfers :
  st_xfers ex_s = [ mkx (User 0) Pool 0 10; mkx (User 0) (Escrow Selling 0) 1 1000;
                    mkx (User 2) Pool 0 1;  mkx (User 2) (Escrow Paying 0) 2 50 ].
Proof. rewrite !ex_s_eq. vm_compute. reflexivity. Qed.

(* the settling block: allocation to the bidder, unsold coins back, proceeds into the vesting escrow *)
Example ex_block_xfers :
  fst (step ex_s ex_block) = BlockOk /\
  step_xfers ex_s ex_block = [ mkx (Escrow Selling 0) (User 2) 1 50; mkx (Escrow Selling 0) (User 0) 1 950;
                               mkx (Escrow Paying 0) (Escrow Vesting 0) 2 50 ].
Proof. unfold step_xfers. rewrite !ex_block_step, !ex_s_eq. vm_compute. split; reflexivity. Qed.

Example ex_checker :
  trackedb ex_s ex_block = true /\ c02_ok (model_trans ex_s ex_block) = true
  /\ trackedb ex_s ex_bid = true /\ c02_ok (model_trans ex_s ex_bid) = true.
Proof. rewrite !ex_s_eq. split; [|split; [|split]]; vm_compute; reflexivity. Qed.

(* The witnesses of the next two examples are results of an evaluation and cannot be written down: the closed statement
   is put as a match over the evaluations, evaluated once, and the results are then named by destructing the match. *)
Example ex_settlement_hyps :
  exists a s' a', find_auction ex_s (a_id a) = Some a /\ a_status a = Started
    /\ process 250 [] (with_now ex_s 250) a = Ok s'
    /\ find_auction s' (a_id a) = Some a' /\ a_status a' = VestingS.
Proof.
  assert (E : match find_auction ex_s 0 with
              | Some a =>
                  match process 250 [] (with_now ex_s 250) a with
                  | Ok s' =>
                      match find_auction s' 0 with
                      | Some a' => a_id a = 0%N /\ a_status a = Started /\ a_status a' = VestingS
                      | None => False
                      end
                  | Err _ _ => False
                  end
              | None => False
              end).
  { rewrite ex_s_eq. vm_compute. repeat split; reflexivity. }
  destruct (find_auction ex_s 0) as [a|] eqn:Fa; [|contradiction].
  destruct (process 250 [] (with_now ex_s 250) a) as [s'|] eqn:Hp; [|contradiction].
  destruct (find_auction s' 0) as [a'|] eqn:Fa'; [|contradiction].
  destruct E as (Ei & Es & Es'). exists a, s', a'.
  rewrite Ei. repeat split; assumption.
Qed.

Example ex_settlement_block_hyps :
  exists s' a a', begin_block ex_s 250 [] = Ok s' /\ In a (st_auctions ex_s) /\ a_status a = Started
    /\ find_auction s' (a_id a) = Some a' /\ a_status a' = VestingS.
Proof.
  assert (E : match begin_block ex_s 250 [], st_auctions ex_s with
              | Ok s', a :: _ =>
                  match find_auction s' (a_id a) with
                  | Some a' => a_status a = Started /\ a_status a' = VestingS
                  | None => False
                  end
              | _, _ => False
              end).
  { rewrite ex_s_eq. vm_compute. split; reflexivity. }
  destruct (begin_block ex_s 250 []) as [s'|] eqn:Hb; [|contradiction].
  destruct (st_auctions ex_s) as [|a l] eqn:Ha; [contradiction|].
  destruct (find_auction s' (a_id a)) as [a'|] eqn:Fa'; [|contradiction].
  destruct E as (Es & Es'). exists s', a, a'.
  split; [reflexivity|]. split; [left; reflexivity|]. repeat split; assumption.
Qed.

(* after the release block the auction is Finished: nothing is owed, the instalment is released *)
Example ex_terminal :
  let s1 := snd (step (snd (step ex_s ex_block)) (OBlock 500 [])) in
  map a_status (st_auctions s1) = [Finished] /\ map v_released (st_vqs s1) = [true]
  /\ st_bal s1 (Escrow Selling 0) 1 = 0 /\ st_bal s1 (Escrow Paying 0) 2 = 0 /\ st_bal s1 (Escrow Vesting 0) 2 = 0
  /\ st_bal s1 (User 0) 2 = 1000050 /\ st_bal s1 Pool 0 = 11.
Proof. rewrite !ex_released_eq. vm_compute. repeat split; reflexivity. Qed.

Example ex_vesting_ledger :
  let s1 := snd (step (snd (step ex_s ex_block)) (OBlock 500 [])) in
  sum_xfers (st_xfers s1) (from_to (Escrow Paying 0) (Escrow Vesting 0) 2) = 50
  /\ sum_xfers (st_xfers s1) (from_to (Escrow Vesting 0) (User 0) 2) = 50
  /\ map v_amt (vqs_of s1 0) = [50].
Proof. rewrite !ex_released_eq. vm_compute. repeat split; reflexivity. Qed.

(* `tracked` is needed for the zero_sum conjunct of the monitor: user 7 is outside Checkers.users *)
Example ex_untracked :
  zero_sum (model_trans ex_s (OSend 7 Pool 0 5)) = false /\ trackedb ex_s (OSend 7 Pool 0 5) = false.
Proof. rewrite !ex_s_eq. split; vm_compute; reflexivity. Qed.

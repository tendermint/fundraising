(* C04 (fixed-price part): how a fixed-price bid is converted.
   A bid of c paying coins at price p asks for q = floor(c/p) selling coins and reserves exactly c;
   a bid for a selling coins at price p reserves r = ceil(a*p) paying coins and asks for exactly a.
   Prices are 18-decimal fixed point: the real price is (b_price b)/P, P = 10^18.
   Proofs: Proofs/DecFacts.v. *)
From Coq Require Import ZArith NArith List Lia.
From FR Require Import Dec Types Match.
From FR.Proofs Require Import DecFacts.
Import ListNotations.
Open Scope Z_scope.

(* paying-denominated bid: c := b_amt b, p := b_price b *)
Theorem C04_paying_denominated_bid : forall (pd : N) (b : bid),
  b_denom b = pd -> 0 < b_amt b -> 0 < b_price b ->
  let q := sell_amount pd b in
  q * b_price b <= b_amt b * P < (q + 1) * b_price b
  /\ 0 <= q
  /\ pay_amount pd b = b_amt b.
Proof. exact fixed_bid_paying. Qed.
Print Assumptions C04_paying_denominated_bid.

(* selling-denominated bid: a := b_amt b, p := b_price b *)
Theorem C04_selling_denominated_bid : forall (pd : N) (b : bid),
  b_denom b <> pd -> 0 < b_amt b -> 0 < b_price b ->
  let r := pay_amount pd b in
  b_amt b * b_price b <= r * P < b_amt b * b_price b + P
  /\ 0 < r
  /\ sell_amount pd b = b_amt b.
Proof. exact fixed_bid_selling. Qed.
Print Assumptions C04_selling_denominated_bid.

(* in either denomination the reserve covers the price of the quantity asked for *)
Theorem C04_reserve_covers_cost : forall (pd : N) (b : bid),
  0 < b_amt b -> 0 < b_price b ->
  pay_of_qty (sell_amount pd b) (b_price b) <= pay_amount pd b.
Proof.
  intros pd b Ha Hp. destruct (N.eq_dec (b_denom b) pd) as [E|E].
  - rewrite (sell_amount_paying pd b E), (pay_amount_paying pd b E).
    apply worth_never_overpays; lia.
  - rewrite (sell_amount_selling pd b E), (pay_amount_selling pd b E). lia.
Qed.
Print Assumptions C04_reserve_covers_cost.

Theorem C04_qty_of_worth_is_floor : forall w p, 0 <= w -> 0 < p -> qty_of_worth w p = w * P / p.
Proof. exact qty_of_worth_eq. Qed.
Print Assumptions C04_qty_of_worth_is_floor.

Theorem C04_pay_of_qty_is_ceiling : forall m p, 0 <= m -> 0 <= p -> pay_of_qty m p = (m * p + P - 1) / P.
Proof. exact pay_of_qty_eq. Qed.
Print Assumptions C04_pay_of_qty_is_ceiling.

Theorem C04_worth_never_overpays : forall w p, 0 <= w -> 0 < p -> pay_of_qty (qty_of_worth w p) p <= w.
Proof. exact worth_never_overpays. Qed.
Print Assumptions C04_worth_never_overpays.

(* price 0.333333333333333333, paying denom 1, selling denom 0 *)
Definition ex_bid_paying : bid :=
  {| b_auction := 1; b_id := 1; b_bidder := 2; b_type := BFixed; b_price := 333333333333333333;
     b_denom := 1; b_amt := 1000; b_matched := false |}.
Definition ex_bid_selling : bid :=
  {| b_auction := 1; b_id := 2; b_bidder := 2; b_type := BFixed; b_price := 333333333333333333;
     b_denom := 0; b_amt := 1000; b_matched := false |}.

Example ex_paying_hyps : b_denom ex_bid_paying = 1%N /\ 0 < b_amt ex_bid_paying /\ 0 < b_price ex_bid_paying.
Proof. vm_compute. repeat split. Qed.
(* 1000 paying coins at 0.333333333333333333 buy 3000 selling coins; 1000 are reserved *)
Example ex_paying_values : sell_amount 1 ex_bid_paying = 3000 /\ pay_amount 1 ex_bid_paying = 1000.
Proof. vm_compute. split; reflexivity. Qed.

Example ex_selling_hyps : b_denom ex_bid_selling <> 1%N /\ 0 < b_amt ex_bid_selling /\ 0 < b_price ex_bid_selling.
Proof. vm_compute. repeat split. discriminate. Qed.
(* 1000 selling coins at 0.333333333333333333 cost 333.33..., so 334 are reserved *)
Example ex_selling_values : sell_amount 1 ex_bid_selling = 1000 /\ pay_amount 1 ex_bid_selling = 334.
Proof. vm_compute. split; reflexivity. Qed.

(* C04 (batch part): what a bidder pays in a batch auction.
   paid u = reserved u - refund u is the bidder's allocation at the clearing price, rounded up
   once per matched bid; it never exceeds what was reserved (the refund is never negative, which
   is also what keeps RefundPayingCoin from panicking), and a bidder who gets nothing gets
   everything back. *)
From Coq Require Import ZArith NArith List.
From FR Require Import Dec Types Match.
From FR.Proofs Require Import MatchDemand MatchBatch MatchConseq MatchWf MatchExamples.
From FR.Properties Require C03.
Import ListNotations.
Open Scope Z_scope.

(* matched_count bs matched u = number of bids of bidder u in bs whose id is in matched.
   denoms_wf pd bs: worth bids are denominated in the paying coin pd, how-many bids are not. *)
Theorem C04_batch_refund a bs ids order al mi :
  book_wf bs al -> valid_order bs ids = Some order -> 0 <= a_sell_amt a ->
  denoms_wf (a_pay_denom a) bs ->
  calc_batch a bs order al = Some mi ->
  let pd := a_pay_denom a in
  let paid := fun u => reserved_of pd bs u - mi_refund mi u in
  (forall u, 0 <= mi_refund mi u <= reserved_of pd bs u) /\
  (forall u, mi_alloc mi u = 0 -> mi_refund mi u = reserved_of pd bs u) /\
  (forall u, mi_price mi * mi_alloc mi u <= paid u * P <=
             mi_price mi * mi_alloc mi u + matched_count bs (mi_matched mi) u * (P - 1)) /\
  (forall i, In i (mi_matched mi) -> exists b, In b bs /\ b_id b = i /\ mi_price mi <= b_price b).
Proof. exact (batch_refund_facts a bs ids order al mi). Qed.
Print Assumptions C04_batch_refund.

(* strict form of the upper bound (false for a bidder without matched bids: 0 < 0) *)
Theorem C04_batch_paid_strict a bs ids order al mi :
  book_wf bs al -> valid_order bs ids = Some order -> 0 <= a_sell_amt a ->
  denoms_wf (a_pay_denom a) bs ->
  calc_batch a bs order al = Some mi ->
  forall u, 0 < matched_count bs (mi_matched mi) u ->
    (reserved_of (a_pay_denom a) bs u - mi_refund mi u) * P <
    mi_price mi * mi_alloc mi u + matched_count bs (mi_matched mi) u * P.
Proof. exact (batch_paid_strict a bs ids order al mi). Qed.
Print Assumptions C04_batch_paid_strict.

(* the refund in terms of the sweep's assignment: reserved minus the sum over the bidder's bids
   of ceil(p * amount matched to the bid) (the last part of batch_result, Proofs/MatchBatch.v, the case that clears
   at p; batch_asg order al p there is the assignment of the sweep at p) *)
Theorem C04_batch_refund_formula a bs ids order al :
  book_wf bs al -> valid_order bs ids = Some order -> 0 <= a_sell_amt a ->
  exists mi, calc_batch a bs order al = Some mi /\ batch_result a bs order al mi.
Proof. exact (calc_batch_full a bs ids order al). Qed.
Print Assumptions C04_batch_refund_formula.

(* hypotheses satisfiable; book 2: bidder 1 reserved 150 pays 80 = 2.0 * 40, bidder 2 reserved
   60 + 7 pays 66 = 2.0 * 33 (1 refunded by rounding of the worth bid), bidder 3 gets all 40 back *)
Example ex2_hyps :
  book_wfb ex2_bids ex2_al = true /\ denoms_wfb (a_pay_denom (ex_auction 80)) ex2_bids = true.
Proof. vm_compute. split; reflexivity. Qed.
Example ex2_denoms_wf : denoms_wf (a_pay_denom (ex_auction 80)) ex2_bids.
Proof. exact (denoms_wfb_sound _ _ (proj2 ex2_hyps)). Qed.
Example ex2_refunds :
  map (reserved_of 0 ex2_bids) [1; 2; 3; 4]%N = [150; 67; 40; 0] /\
  ex2_run ex2_order_a = Some (2 * P, 73, [1; 5; 2; 3]%N, [1; 2; 3]%N, [40; 33; 0; 0], [70; 1; 40; 0]) /\
  map (matched_count ex2_bids [1; 5; 2; 3]%N) [1; 2; 3]%N = [2; 2; 0].
Proof. split; [vm_compute; reflexivity|]. split; [exact C03.ex2_code_a|vm_compute; reflexivity]. Qed.

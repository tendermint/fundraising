(* C11 under the global invariant Inv, which every reachable state satisfies (InvAll.Inv_reachable): the hypotheses WF
   and bids_pos of C11.v follow from it. *)
From Coq Require Import ZArith List.
From FR Require Import Types Match Model Spec.
From FR.Proofs Require Import InvDefs FixedFacts PrecondFacts PrecondEffects.
Import ListNotations.
Open Scope Z_scope.

Theorem C11_modify_iff_inv : forall s who id bid_id price coin, Inv s ->
  (fst (deliver_tx s (MModifyBid who id bid_id price coin)) = Accepted <->
   precond s (MModifyBid who id bid_id price coin) = true).
Proof. intros s who id bid_id price coin I. apply C18_exact_proof, Inv_WF, I. Qed.
Print Assumptions C11_modify_iff_inv.

(* a modification never lowers a reservation, in any state satisfying Inv: the increase charged is >= 0 *)
Theorem C11_reservation_monotone : forall s up u id bid_id p d amt a b, Inv s ->
  let m := MModifyBid (AGood up u) id bid_id (Some p) {| mc_denom := Some d; mc_amt := Some amt |} in
  fst (deliver_tx s m) = Accepted -> find_auction s id = Some a -> find_bid s id bid_id = Some b ->
  0 <= pay_amount (a_pay_denom a) (set_b_terms b p amt) - pay_amount (a_pay_denom a) b.
Proof.
  intros s up u id bid_id p d amt a b I m.
  exact (modify_reservation_grows s up u id bid_id p d amt a b (Inv_bids_pos s I)).
Qed.
Print Assumptions C11_reservation_monotone.

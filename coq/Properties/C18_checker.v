(* C18, checker link: the executable monitor Checkers.c18_ok (acceptance exactly under Spec.precond; a rejected
   message leaves store and balances unchanged and moves no coins) accepts every transition of the model from a
   state satisfying the invariant.  Proof: Proofs/Chk18.v. *)
From Coq Require Import ZArith List.
From FR Require Import Dec Types Model Checkers.
From FR.Proofs Require Import InvDefs InvAll ExcessExamples ExampleRuns Chk18.
Import ListNotations.
Open Scope Z_scope.

Theorem C18_checker : forall s o, Inv s -> oracle_ok s o -> c18_ok (model_trans s o) = true.
Proof. intros s o I _. exact (c18_ok_model s o I). Qed.
Print Assumptions C18_checker.

(* the hypothesis is satisfiable; an accepted and a rejected message in a reachable state *)
Example C18_checker_ex_reachable : Inv (run c01_init c01_hist1).
Proof. apply Inv_reachable; [intros [u|r a|] d; cbn; discriminate|reflexivity|reflexivity]. Qed.
Example C18_checker_ex_accept :
  t_class (model_trans (run c01_init c01_hist1) (OTx (MPlaceBid (AGood false 2) 0 1 (Some P) (c01_coin 2 50)))) = KOk
  /\ c18_ok (model_trans (run c01_init c01_hist1) (OTx (MPlaceBid (AGood false 2) 0 1 (Some P) (c01_coin 2 50)))) = true.
Proof. rewrite !c01_hist1_eq. set (t := model_trans _ _). revert t. vm_compute. split; reflexivity. Qed.
Example C18_checker_ex_reject :   (* one unit over the allowance *)
  t_class (model_trans (run c01_init c01_hist1) (OTx (MPlaceBid (AGood false 2) 0 1 (Some P) (c01_coin 2 51)))) = KRej
  /\ c18_ok (model_trans (run c01_init c01_hist1) (OTx (MPlaceBid (AGood false 2) 0 1 (Some P) (c01_coin 2 51)))) = true.
Proof. rewrite !c01_hist1_eq. set (t := model_trans _ _). revert t. vm_compute. split; reflexivity. Qed.

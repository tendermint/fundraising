(* C10: the allow-list.  What every operation does to the stored list is in Proofs/AllowFacts.v; the theorems that only
   read it off are proved here. *)
From Coq Require Import ZArith NArith List.
From FR Require Import Dec Types Model.
From FR.Proofs Require Import AllowFacts.
Import ListNotations.
Open Scope Z_scope.

(* With EnableAddAllowedBidder off, no transaction changes the allow-list, and MsgAddAllowedBidder
   is always rejected (leaving the state untouched). *)
Theorem C10_gate : forall s, st_switch s = false ->
  (forall m, st_allowed (snd (deliver_tx s m)) = st_allowed s) /\
  (forall a ea who max,
     deliver_tx s (MAddAllowed a ea who max) =
     (Rejected (match who with AGood _ _ => E_DISABLED | ABad => E_BASIC end), s)).
Proof. intros s H. split; [exact (gate_tx s H) | exact (gate_add_rejected s H)]. Qed.
Print Assumptions C10_gate.

(* Blocks, faulted blocks, bank sends and listener registration never change the allow-list. *)
Theorem C10_gate_other_ops : forall s o,
  match o with OBlock _ _ | OFaultBlock _ _ _ | OSend _ _ _ _ | OSetListeners _ => True | _ => False end ->
  st_allowed (snd (step s o)) = st_allowed s.
Proof. intros s o H. apply allowed_frame_step. destruct o; try contradiction; intros []. Qed.
Print Assumptions C10_gate_other_ops.

(* Only the keeper API (and MsgAddAllowedBidder with the switch on, and a genesis round trip, which
   re-sorts the list) can change the allow-list. *)
Theorem C10_only_api : forall s o,
  st_allowed (snd (step s o)) <> st_allowed s ->
  match o with
  | OApiAdd _ _ | OApiUpdate _ _ _ | OGenesis => True
  | OTx (MAddAllowed _ _ _ _) => st_switch s = true
  | _ => False
  end.
Proof.
  intros s o H. destruct (may_change_dec s o) as [Hm|Hm]; [exact Hm|].
  exfalso. apply H. apply allowed_frame_step. exact Hm.
Qed.
Print Assumptions C10_only_api.

(* An accepted bid comes from a well-formed bidder address with an allow-list entry for that
   auction; the bid that is appended carries that bidder and auction. *)
Theorem C10_bid_requires_entry : forall s who id bt price coin,
  fst (step s (OTx (MPlaceBid who id bt price coin))) = Accepted ->
  exists up u, who = AGood up u /\ find_allowed s id u <> None /\
    exists b, st_bids (snd (step s (OTx (MPlaceBid who id bt price coin)))) = st_bids s ++ [b]
              /\ b_bidder b = u /\ b_auction b = id.
Proof. exact bid_requires_entry. Qed.
Print Assumptions C10_bid_requires_entry.

(* No operation - the genesis round trip included - removes an allow-list entry. *)
Theorem C10_entries_persist : forall s o a u e,
  find_allowed s a u = Some e -> exists e', find_allowed (snd (step s o)) a u = Some e'.
Proof.
  intros s o a u e H. destruct (allow_rel_step s o) as [Hp _].
  specialize (Hp a u). rewrite H in Hp.
  destruct (find_allowed (snd (step s o)) a u) as [e'|]; [exists e'; reflexivity|].
  exfalso. apply Hp; [discriminate | reflexivity].
Qed.
Print Assumptions C10_entries_persist.

(* The entry of (a, u), cap included, is unchanged by every operation other than the allow-list API
   on auction a and the genesis round trip. *)
Theorem C10_cap_unchanged : forall s o a u,
  match o with
  | OApiAdd a' _ | OApiUpdate a' _ _ | OTx (MAddAllowed a' _ _ _) => a' <> a
  | OGenesis => False
  | _ => True
  end ->
  find_allowed (snd (step s o)) a u = find_allowed s a u.
Proof.
  intros s o a u H. apply cap_unchanged.
  destruct o as [m| | | | | | |]; cbn in *; try tauto. destruct m; cbn in *; tauto.
Qed.
Print Assumptions C10_cap_unchanged.

(* With unique allow-list keys the entry is unchanged by the genesis round trip too. *)
Theorem C10_entries_persist_exact : forall s o a u e,
  unique_keys s ->
  match o with
  | OApiAdd a' _ | OApiUpdate a' _ _ | OTx (MAddAllowed a' _ _ _) => a' <> a
  | _ => True
  end ->
  find_allowed s a u = Some e -> find_allowed (snd (step s o)) a u = Some e.
Proof.
  intros s o a u e Hu Ho Hf.
  assert (C : o = OGenesis \/ ~ touches_cap a o).
  { destruct o as [m| | | | | | |]; cbn in *; try tauto. destruct m; cbn in *; tauto. }
  destruct C as [-> | C].
  - apply genesis_entries_exact; assumption.
  - rewrite cap_unchanged by exact C. exact Hf.
Qed.
Print Assumptions C10_entries_persist_exact.

(* Every stored bid has an allow-list entry: preserved by every step (OGenesis included), true
   without bids, hence true in every reachable state. *)
Theorem C10_invariant_step : forall s o, bids_allowed s -> bids_allowed (snd (step s o)).
Proof. exact bids_allowed_step. Qed.
Print Assumptions C10_invariant_step.

Theorem C10_invariant_init : forall s, st_bids s = [] -> bids_allowed s.
Proof.
  intros s H b Hb. rewrite H in Hb. destruct Hb.
Qed.

Theorem C10_invariant : forall s0 ops, bids_allowed s0 -> bids_allowed (run s0 ops).
Proof. intros s0 ops. apply bids_allowed_run. Qed.
Print Assumptions C10_invariant.

(* Histories: whatever users send (creations, cancellations, bids, modifications, parameter updates, plain bank sends),
   whatever blocks pass and whatever listeners are registered, in any number and order, the allow-list stays exactly
   what the auctioneer-side API made it.  No hypothesis on the state, none on the switch: the only message that could
   write to the list is MsgAddAllowedBidder itself (C10_gate covers it). *)
Theorem C10_users_never_change_the_list : forall ops s,
  Forall user_op ops -> st_allowed (run s ops) = st_allowed s.
Proof. exact allowed_frame_run. Qed.
Print Assumptions C10_users_never_change_the_list.

Definition ex0 : state :=
  {| st_params := {| p_cfee := [(0%N, 5)]; p_bfee := [(0%N, 1)]; p_period := 1 |};
     st_auctions := []; st_bids := []; st_allowed := []; st_vqs := [];
     st_aseq := 1%N; st_bseq := fun _ => 0%N; st_mlen := fun _ => 0;
     st_bal := fun a _ => match a with User _ => 1000000 | _ => 0 end;
     st_now := 10; st_listeners := []; st_switch := false; st_xfers := []; st_trace := [] |}.
Definition coin (d : N) (a : Z) : mcoin := {| mc_denom := Some d; mc_amt := Some a |}.
Definition ex_create : op :=
  OTx (MCreateFixed (AGood false 7) (Some (2 * P)) (coin 1 1000) (Some 2%N) [] 5 100).
Definition ex_bid : op := OTx (MPlaceBid (AGood false 8) 1 1 (Some (2 * P)) (coin 2 100)).
Definition ex1 : state := run ex0 [ex_create].
Definition ex2 : state := run ex1 [OApiAdd 1 [(1%N, AGood false 8%N, Some 500)]].

(* the hypotheses are satisfiable: without an entry the bid is rejected, with it accepted *)
Example ex_bid_rejected_without_entry : fst (step ex1 ex_bid) = Rejected E_NOTALLOWED.
Proof. vm_compute. reflexivity. Qed.
Example ex_bid_accepted_with_entry : fst (step ex2 ex_bid) = Accepted.
Proof. vm_compute. reflexivity. Qed.
Example ex_entry : find_allowed ex2 1 8 = Some {| al_auction := 1; al_bidder := 8; al_max := 500 |}.
Proof. vm_compute. reflexivity. Qed.
Example ex_gate_hyp : st_switch ex2 = false.
Proof. reflexivity. Qed.
Example ex_msg_add_rejected :
  fst (step ex2 (OTx (MAddAllowed 1 1 (AGood false 9) (Some 10)))) = Rejected E_DISABLED.
Proof. vm_compute. reflexivity. Qed.
Example ex_invariant_reached :
  map (fun b => (b_auction b, b_bidder b)) (st_bids (run ex2 [ex_bid; OBlock 200 []; OGenesis])) = [(1%N, 8%N)]
  /\ find_allowed (run ex2 [ex_bid; OBlock 200 []; OGenesis]) 1 8
     = Some {| al_auction := 1; al_bidder := 8; al_max := 500 |}.
Proof. (* read twice, evaluated once: ExampleRuns.v *) set (s := run ex2 _). revert s. vm_compute. split; reflexivity. Qed.
Example ex_history_keeps_list :
  Forall user_op [ex_bid; OBlock 200 []; OSend 8 (User 9) 2 5; OSetListeners [[1%N]]]
  /\ st_allowed (run ex2 [ex_bid; OBlock 200 []; OSend 8 (User 9) 2 5; OSetListeners [[1%N]]]) = st_allowed ex2
  /\ st_allowed ex2 <> [].
Proof. split; [repeat constructor|]. split; [vm_compute; reflexivity|vm_compute; discriminate]. Qed.

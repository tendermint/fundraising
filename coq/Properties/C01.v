(* C01 (exact form): "an escrow account of an auction holds exactly what the module's records owe out of it,
   plus whatever third parties deposited into it and has not been swept yet; coins deposited by third parties
   are swept with the escrow (selling: on cancel / settlement, to the auctioneer; paying: on settlement, into
   the proceeds)".
   In the terms of the model (Proofs/ExcessDefs.v, Proofs/ExcessAll.v; owed is InvDefs.owed):
   excess s r id d   = st_bal s (Escrow r id) d - owed s r id d
   sweepsP s s' r id d : the operation s -> s' sweeps escrow (r,id) in denom d (selling: the auction leaves
                       stand-by/started in its selling denom; paying: it settles, in its paying denom)
   donation o out r id d : the amount of an accepted OSend into Escrow r id in denom d, else 0
   ghost s ops e r id d : e updated along the history: reset to 0 by a sweep, increased by each donation. *)
From Coq Require Import ZArith List.
From FR Require Import Types Genesis Model.
From FR Require Checkers.
From FR.Proofs Require Import InvDefs ExcessDefs ExcessAll ExcessExamples ExampleRuns.
Import ListNotations.
Open Scope Z_scope.

(* every operation (accepted or rejected transactions, API calls, blocks that succeed, fail or are hit by an
   injected bank fault, plain sends, listener changes, GENESIS), from every state satisfying the invariant *)
Theorem C01_step : forall s o, Inv s -> forall r id d,
  excess (snd (step s o)) r id d
  = if sweepsP s (snd (step s o)) r id d then 0 else excess s r id d + donation o (fst (step s o)) r id d.
Proof. exact excess_step. Qed.
Print Assumptions C01_step.

Theorem C01_history_run : forall ops s, Inv s -> forall r id d,
  excess (run s ops) r id d = ghost s ops (excess s r id d) r id d.
Proof. exact excess_run. Qed.
Print Assumptions C01_history_run.

(* every history from the empty module over any non-negative bank: balance = owed + unswept deposits *)
Theorem C01_history : forall bal now sw p ops r id d,
  (forall x d, 0 <= bal x d) -> coins_ok (p_cfee p) None = true -> coins_ok (p_bfee p) None = true ->
  let s := run (init_state bal now sw p) ops in
  st_bal s (Escrow r id) d = owed s r id d + ghost (init_state bal now sw p) ops (bal (Escrow r id) d) r id d
  /\ 0 <= ghost (init_state bal now sw p) ops (bal (Escrow r id) d) r id d.
Proof. exact escrow_exact. Qed.
Print Assumptions C01_history.

Theorem C01_ghost_no_donations : forall ops s r id d,
  Forall (no_send_to r id) ops -> ghost s ops 0 r id d = 0.
Proof. intros ops s r id d H. apply ghost_no_deposits, no_send_no_deposit, H. Qed.
Print Assumptions C01_ghost_no_donations.

(* the first sentence of the property: without third-party deposits the escrow holds exactly what is owed *)
Theorem C01_no_donations : forall bal now sw p ops r id d,
  (forall x d, 0 <= bal x d) -> coins_ok (p_cfee p) None = true -> coins_ok (p_bfee p) None = true ->
  bal (Escrow r id) d = 0 -> Forall (no_send_to r id) ops ->
  let s := run (init_state bal now sw p) ops in st_bal s (Escrow r id) d = owed s r id d.
Proof.
  intros bal now sw p ops r id d Hb H1 H2 H0 Hops. apply escrow_exact_no_deposits; try assumption.
  apply no_send_no_deposit, Hops.
Qed.
Print Assumptions C01_no_donations.

(* the same, per denomination: only deposits in denom d into Escrow r id matter *)
Theorem C01_no_deposits : forall bal now sw p ops r id d,
  (forall x d, 0 <= bal x d) -> coins_ok (p_cfee p) None = true -> coins_ok (p_bfee p) None = true ->
  bal (Escrow r id) d = 0 -> Forall (no_deposit r id d) ops ->
  let s := run (init_state bal now sw p) ops in st_bal s (Escrow r id) d = owed s r id d.
Proof. exact escrow_exact_no_deposits. Qed.
Print Assumptions C01_no_deposits.

(* the executable monitor the driver runs on the implementation's transitions accepts every transition of
   the model from a state satisfying the invariant *)
Theorem C01_checker : forall s o, Inv s -> Checkers.c01_ok (Checkers.model_trans s o) = true.
Proof. exact c01_ok_model. Qed.
Print Assumptions C01_checker.

(* the hypotheses are satisfiable, and what the equations say on a short history
   (ExcessExamples.v: create a fixed price auction with one instalment, allow-list, bid 50, [deposit 7],
   closing block, releasing block); c01_view lists (balance, owed) of Selling/Paying/Vesting of auction 0
   in the denominations 1 (selling) and 2 (paying) *)
Example C01_ex_params : coins_ok (p_cfee c01_params) None = true /\ coins_ok (p_bfee c01_params) None = true.
Proof. vm_compute. split; reflexivity. Qed.

(* c01_histK_eq: Proofs/ExampleRuns.v *)
Example C01_ex_open : c01_view (run c01_init c01_hist1) = [(1000, 1000); (0, 0); (0, 0); (50, 50); (0, 0); (0, 0)].
Proof. rewrite !c01_hist1_eq. vm_compute. reflexivity. Qed.
Example C01_ex_closed : c01_view (run c01_init c01_hist2) = [(0, 0); (0, 0); (0, 0); (0, 0); (0, 0); (50, 50)].
Proof. rewrite !c01_hist2_eq. vm_compute. reflexivity. Qed.
Example C01_ex_no_send : Forall (no_send_to Paying 0) c01_hist2.
Proof. repeat constructor. Qed.

(* with a deposit of 7 into the paying escrow: an excess of 7 until the settlement sweeps it into the proceeds *)
Example C01_ex_gift : c01_view (run c01_init c01_hist3) = [(1000, 1000); (0, 0); (0, 0); (57, 50); (0, 0); (0, 0)]
  /\ ghost c01_init c01_hist3 0 Paying 0 2 = 7.
Proof. rewrite !c01_hist3_eq. vm_compute. split; reflexivity. Qed.
Example C01_ex_gift_swept : c01_view (run c01_init c01_hist4) = [(0, 0); (0, 0); (0, 0); (0, 0); (0, 0); (57, 57)]
  /\ ghost c01_init c01_hist4 0 Paying 0 2 = 0.
Proof. rewrite !c01_hist4_eq. vm_compute. split; reflexivity. Qed.
Example C01_ex_released : c01_view (run c01_init c01_hist5) = [(0, 0); (0, 0); (0, 0); (0, 0); (0, 0); (0, 0)]
  /\ map a_status (st_auctions (run c01_init c01_hist5)) = [Finished].
Proof. rewrite !c01_hist5_eq. vm_compute. split; reflexivity. Qed.
Example C01_ex_checker : Checkers.c01_ok (Checkers.model_trans (run c01_init c01_hist3) c01_close) = true.
Proof. rewrite !c01_hist3_eq. vm_compute. reflexivity. Qed.

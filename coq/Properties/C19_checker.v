(* C19, checker link: the executable monitor Checkers.c19_ok (an operation leaves everything about the auctions it is
   not about untouched, escrow balances included up to plain deposits; auction terms and the bidder / type of a bid
   never change; the auction counter and the per-auction bid counters never decrease, auction ids are 0..n-1 in
   store order and the bid ids of an auction 1..k once sorted; a rejected operation does not move the auction counter) accepts every transition of the model from a
   state satisfying the invariant (a GENESIS operation it accepts outright: Checkers.c19_ok does not look at it).  Proof: Proofs/Chk19.v. *)
From Coq Require Import ZArith NArith List.
From FR Require Import Dec Types Model Checkers.
From FR.Proofs Require Import InvDefs InvAll ExcessExamples ExampleRuns Chk19.
From FR.Proofs Require TxFacts.
Import ListNotations.
Open Scope Z_scope.

Theorem C19_checker : forall s o, Inv s -> oracle_ok s o -> c19_ok (model_trans s o) = true.
Proof. intros s o I _. exact (c19_ok_model s o I). Qed.
Print Assumptions C19_checker.

(* the checker the driver evaluates for C19: c19_ok and c19_release_own (what leaves the vesting escrow of an auction in
   a block is that auction's own due instalments, paid to its own auctioneer) *)
Theorem C19_all_checker : forall s o, Inv s -> oracle_ok s o -> c19_all (model_trans s o) = true.
Proof. intros s o I _. exact (Chk19.c19_all_model s o I). Qed.
Print Assumptions C19_all_checker.

(* the hypothesis is satisfiable: two auctions (0: fixed price, started, one bid; 1: batch, waiting to open at 150);
   a bid on auction 0, a rejected bid on auction 1, a deposit into an escrow of auction 1, the block that opens
   auction 1, the block that closes auction 0, a cancellation and a creation are all accepted by the monitor *)
Definition c19_create2 : op :=
  OTx (MCreateBatch (AGood false 1) (Some P) (Some (P / 2)) (c01_coin 1 500) (Some 2%N) [] 0 (Some (P / 10)) 150 300).
Definition c19_hist : list op := c01_hist1 ++ [c19_create2].

Definition c19_hist_nf : state := Eval vm_compute in snd (step c01_hist1_nf c19_create2).
Lemma c19_hist_eq : run c01_init c19_hist = c19_hist_nf.
Proof. unfold c19_hist. rewrite TxFacts.run_snoc, c01_hist1_eq. vm_compute. reflexivity. Qed.
Example C19_checker_ex_reachable : Inv (run c01_init c19_hist).
Proof. apply Inv_reachable; [intros [u|r a|] d; cbn; discriminate|reflexivity|reflexivity]. Qed.
Example C19_checker_ex_state :
  map (fun a => (a_id a, a_status a)) (st_auctions (run c01_init c19_hist)) = [(0%N, Started); (1%N, StandBy)].
Proof. rewrite !c19_hist_eq. vm_compute. reflexivity. Qed.
Example C19_checker_ex_ops :
  map (fun o => (t_class (model_trans (run c01_init c19_hist) o), c19_ok (model_trans (run c01_init c19_hist) o)))
      [OTx (MPlaceBid (AGood false 2) 0 1 (Some P) (c01_coin 2 30));
       OTx (MPlaceBid (AGood false 2) 1 2 (Some P) (c01_coin 2 30));
       OSend 3 (Escrow Paying 1) 2 7;
       OBlock 160 []; OBlock 250 [];
       OTx (MCancel (AGood false 1) 1); c19_create2; OGenesis]
  = [(KOk, true); (KRej, true); (KOk, true); (KBlockOk, true); (KBlockOk, true); (KOk, true); (KOk, true); (KGenOk, true)].
Proof.
  rewrite !c19_hist_eq.
  (* each transition is evaluated once for both of its readings *)
  change (fun o => (t_class (model_trans c19_hist_nf o), c19_ok (model_trans c19_hist_nf o)))
    with (fun o => (fun t => (t_class t, c19_ok t)) (model_trans c19_hist_nf o)).
  vm_compute. reflexivity.
Qed.

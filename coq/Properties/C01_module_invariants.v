(* The module's own three invariants (keeper/invariants.go: selling-, paying- and vesting-pool-reserve-amount, which
   compare with >= and are never registered with the application), transcribed as predicates over the model state
   (Proofs/ModuleInv.v) and proved for every reachable state as corollaries of the escrow part of the global invariant.
   They are strictly weaker than C01 (exact equality up to third-party deposits, Properties/C01.v).  The executable
   versions are evaluated by the driver on every state the implementation reaches and compared with the verdicts of
   the Go functions themselves (MINV lines of the harness). *)
From Coq Require Import ZArith List.
From FR Require Import Types Genesis Model Checkers.
From FR.Proofs Require Import InvDefs InvAll ModuleInv.
Import ListNotations.
Open Scope Z_scope.

Theorem C01_module_invariants : forall s, Inv s ->
  selling_pool_reserve_amount s /\ paying_pool_reserve_amount s /\ vesting_pool_reserve_amount s.
Proof. exact module_invariants_hold. Qed.
Print Assumptions C01_module_invariants.

Theorem C01_module_invariants_reachable : forall bal now sw p ops,
  (forall x d, 0 <= bal x d) -> coins_ok (p_cfee p) None = true -> coins_ok (p_bfee p) None = true ->
  let s := run (init_state bal now sw p) ops in
  selling_pool_reserve_amount s /\ paying_pool_reserve_amount s /\ vesting_pool_reserve_amount s.
Proof. intros bal now sw p ops Hb H1 H2 s. apply module_invariants_hold, Inv_reachable; assumption. Qed.
Print Assumptions C01_module_invariants_reachable.

(* the executable transcriptions mean the same and hold in every state satisfying the invariant *)
Theorem C01_module_invariants_executable : forall s,
  (selling_pool_b s = true <-> selling_pool_reserve_amount s) /\
  (paying_pool_b s = true <-> paying_pool_reserve_amount s) /\
  (vesting_pool_b s = true <-> vesting_pool_reserve_amount s) /\
  (Inv s -> module_invariants_b s = true).
Proof.
  intros s. split; [apply selling_pool_b_spec|]. split; [apply paying_pool_b_spec|].
  split; [apply vesting_pool_b_spec|apply module_invariants_b_hold].
Qed.
Print Assumptions C01_module_invariants_executable.

(* the checker the driver evaluates for C01 (escrow equation and module invariants) holds of every model transition *)
Theorem C01_all_checker : forall s o, Inv s -> c01_all (model_trans s o) = true.
Proof. exact c01_all_model. Qed.
Print Assumptions C01_all_checker.

(* Tie of the model's 18-decimal arithmetic (Dec.v) to cosmossdk.io/math in the version /repo builds against: the table
   Generated/Consts.v is produced on every run by harness/cmd/consts, which evaluates the very call chains the module
   uses (types/bid.go ConvertToSellingAmount / ConvertToPayingAmount, types/match.go Match, LegacyDec.Quo) with the real
   library on boundary and pseudo-random operands; here every row of the chains 1, 2, 3 and 6 is checked against the
   model's functions (row_ok).  The rows of chain 4 (the vesting share) and 5 (the extension rule) are checked by
   C09_table.v and C13_table.v, with the row_ok, rows_of and rows_check_sound of this file.
   This is a regenerated, finite check (a test of the model against the library, by vm_compute) - the theorems about
   the arithmetic itself are in C04_fixed.v / C04_batch.v. *)
From Coq Require Import ZArith NArith List Bool Lia.
From FR Require Import Dec.
From FR.Generated Require Consts.
From FR.Proofs Require Import DecFacts.
Import ListNotations.
Open Scope Z_scope.

Definition row_ok (r : N * Z * Z * Z * Z) : bool :=
  let '(op, a, b, c, res) := r in
  match op with
  | 1%N => qty_of_worth a b =? res
  | 2%N | 3%N => pay_of_qty a b =? res
  | 4%N => share a b =? res
  | 5%N => Bool.eqb (extend_rule a b c) (res =? 1)
  | 6%N => dec_quo a b =? res
  | _ => false
  end.
Definition rows_of (ops : list N) : list (N * Z * Z * Z * Z) :=
  filter (fun r => let '(op, _, _, _, _) := r in existsb (N.eqb op) ops) Consts.dec_table.

(* row_ok through the closed forms of DecFacts, with the result of the row as a hint: floor and ceiling rows are checked by
   their bounds and the rows of Quo by the bounds of its rounding (quo_rounds_to), without dividing; the extension rule,
   whose row only says yes or no, by long division on its small operands.  The kernel evaluates this instead of row_ok,
   whose call chains cost it several long divisions a row (a 54-digit intermediate in qty_of_worth, Z.quot and Z.rem apart
   in ceil_int and chop_round); the checker that re-reads the compiled file has no bytecode machine and pays for each of
   them in full. *)
Definition row_check (r : N * Z * Z * Z * Z) : bool :=
  let '(op, a, b, c, res) := r in
  (0 <=? a) && (0 <? b) &&
  match op with
  | 1%N => let x := a * P - res * b in (0 <=? x) && (x <? b)
  | 2%N | 3%N => let x := res * P - a * b in (0 <=? x) && (x <? P)
  | 4%N => let x := a * b - res * P in (0 <=? x) && (x <? P)
  | 5%N => Bool.eqb (c <=? P - quo_digits (a * P) b) (res =? 1)
  | 6%N => quo_rounds_to (a * P) b res
  | _ => false
  end.

Lemma row_check_sound : forall r, row_check r = true -> row_ok r = true.
Proof.
  intros [[[[op a] b] c] res]. unfold row_check, row_ok.
  destruct (Z.leb_spec 0 a) as [Ha|]; [|discriminate]. destruct (Z.ltb_spec 0 b) as [Hb|]; [|discriminate].
  pose proof P_pos as HP. cbn [andb].
  destruct op as [|[[[?|?|]|[?|?|]|]|[[?|?|]|[?|?|]|]|]]; try discriminate; cbv zeta;
    rewrite ?andb_true_iff, ?Z.leb_le, ?Z.ltb_lt, ?Z.eqb_eq; intros H.
  - unfold extend_rule. rewrite dec_quo_ints_long_div by assumption. exact H.
  - rewrite pay_of_qty_eq by lia. apply div_unique_bounds; lia.
  - apply dec_quo_rounds_to; assumption.
  - rewrite share_eq by lia. apply div_unique_bounds; lia.
  - rewrite pay_of_qty_eq by lia. apply div_unique_bounds; lia.
  - rewrite qty_of_worth_eq by assumption. apply div_unique_bounds; lia.
Qed.

Lemma rows_check_sound : forall l, forallb row_check l = true -> forallb row_ok l = true.
Proof. intros l. rewrite !forallb_forall. intros H r Hr. apply row_check_sound, H, Hr. Qed.

(* quantity of a worth bid, reservation / payment of a quantity bid (both call chains), banker's-rounded quotient *)
Theorem C04_dec_table_agrees : forallb row_ok (rows_of [1%N; 2%N; 3%N; 6%N]) = true.
Proof. apply rows_check_sound. vm_compute. reflexivity. Qed.
Print Assumptions C04_dec_table_agrees.

Theorem C04_dec_table_nonempty : Nat.leb 1000 (length (rows_of [1%N; 2%N; 3%N; 6%N])) = true.
Proof. vm_compute. reflexivity. Qed.

Theorem C04_scale_agrees : P = Consts.one_dec_raw /\ Consts.dec_precision = 18.
Proof. split; reflexivity. Qed.
Print Assumptions C04_scale_agrees.

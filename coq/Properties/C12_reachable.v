(* C12 under the global invariant Inv, which every reachable state satisfies (InvAll.Inv_reachable): exact acceptance,
   and the refunded amount. *)
From Coq Require Import ZArith List.
From FR Require Import Types Step Model Spec.
From FR.Proofs Require Import InvDefs FixedFacts.
From FR.Proofs Require Chk12.
From FR.Properties Require C12.
Import ListNotations.
Open Scope Z_scope.

Theorem C12_cancel_iff_inv : forall s who id, Inv s ->
  (fst (deliver_tx s (MCancel who id)) = Accepted <->
   exists up u a, who = AGood up u /\ find_auction s id = Some a /\ u = a_auctioneer a /\
                  a_status a = StandBy /\ no_veto s H_BeforeCanceled = true).
Proof. intros s who id I. apply C12.C12_cancel_iff, Inv_WF, I. Qed.
Print Assumptions C12_cancel_iff_inv.

(* what is refunded - the whole balance of the selling escrow - covers the full offered amount (it is exactly the
   offered amount plus third-party deposits, Properties/C01.v) *)
Theorem C12_refund_covers_offer : forall s id a, Inv s ->
  find_auction s id = Some a -> a_status a = StandBy ->
  a_sell_amt a <= st_bal s (Escrow Selling id) (a_sell_denom a).
Proof. exact Chk12.standby_escrow_covers_offer. Qed.
Print Assumptions C12_refund_covers_offer.

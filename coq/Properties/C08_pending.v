(* C08, state level: "an auction finishes when its last vesting instalment is released".
   vesting_pending s: every auction in the vesting status has a non-empty queue whose LAST entry is unreleased.
   It holds in every reachable state (with the global invariant), so no reachable state has an auction stuck in the
   vesting status with everything paid; together with vqs_wf (finished => all released):
   finished <=> all instalments released, for every settled auction with a schedule.  C08_pending_checker: the
   executable form Checkers.pending_ok holds of the post-state of every model transition.  Proofs: Proofs/VestingPending.v. *)
From Coq Require Import ZArith List.
From FR Require Import Types Genesis Model Checkers.
From FR.Proofs Require Import InvDefs VestingPending ExcessExamples ExampleRuns.
Import ListNotations.
Open Scope Z_scope.

Theorem C08_vesting_pending_step : forall s o, Inv s -> vesting_pending s -> vesting_pending (snd (step s o)).
Proof. exact vesting_pending_step. Qed.
Print Assumptions C08_vesting_pending_step.

Theorem C08_vesting_pending_reachable : forall bal now sw p ops,
  (forall x d, 0 <= bal x d) -> coins_ok (p_cfee p) None = true -> coins_ok (p_bfee p) None = true ->
  vesting_pending (run (init_state bal now sw p) ops).
Proof. exact vesting_pending_reachable. Qed.
Print Assumptions C08_vesting_pending_reachable.

Theorem C08_finished_iff_all_released : forall s a,
  Inv s -> vesting_pending s -> In a (st_auctions s) -> a_scheds a <> [] ->
  a_status a = VestingS \/ a_status a = Finished ->
  (a_status a = Finished <-> forall v, In v (vqs_of s (a_id a)) -> v_released v = true).
Proof. exact vesting_status_iff. Qed.
Print Assumptions C08_finished_iff_all_released.

Theorem C08_pending_checker : forall s o, Inv s -> vesting_pending s -> pending_ok (t_post (model_trans s o)) = true.
Proof. exact pending_ok_model. Qed.
Print Assumptions C08_pending_checker.

(* non-vacuity: after the closing block of ExcessExamples.v the auction is vesting with one unreleased instalment,
   after the releasing block it is finished *)
Example C08_ex_vesting :
  map a_status (st_auctions (run c01_init c01_hist4)) = [VestingS] /\
  map v_released (vqs_of (run c01_init c01_hist4) 0) = [false] /\
  map a_status (st_auctions (run c01_init c01_hist5)) = [Finished] /\
  map v_released (vqs_of (run c01_init c01_hist5) 0) = [true].
Proof. rewrite !c01_hist4_eq, !c01_hist5_eq. vm_compute. repeat split. Qed.

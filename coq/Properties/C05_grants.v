(* C05, "the maximum bid amount the allow-list granted": the stored maximum after an accepted allow-list operation is
   the one granted last; the complete executable statement c05_all = c05_ok && c05_grants && c05_api (the two
   allow-list calls of the keeper are accepted exactly when the model accepts them) holds of every model transition
   (it is evaluated on every implementation transition). *)
From Coq Require Import ZArith List Bool.
From FR Require Import Types Step Checkers.
From FR.Proofs Require Import InvDefs ChkGrants.
Import ListNotations.
Open Scope Z_scope.

Theorem C05_api_add_grants : forall s id l s', api_add s id l = Ok s' ->
  forallb (fun e => match e with
                    | (_, AGood _ u, _) => optZ_eqb (stored_max s' id u) (granted l u)
                    | _ => true end) l = true.
Proof. exact api_add_grants. Qed.
Print Assumptions C05_api_add_grants.

Theorem C05_api_update_grants : forall s id u max s', api_update s id u max = Ok s' -> optZ_eqb (stored_max s' id u) max = true.
Proof. exact api_update_grants. Qed.
Print Assumptions C05_api_update_grants.

Theorem C05_checker_all : forall s o, Inv s -> oracle_ok s o -> c05_all (model_trans s o) = true.
Proof. intros s o I _. exact (c05_all_model s o I). Qed.
Print Assumptions C05_checker_all.

(* C17, checker link: the executable statement Checkers.c17_ok holds of every transition the model makes from a state
   satisfying the global invariant: an operation that succeeds made exactly the expected hook calls (every listener
   once per hook, in listener order, with the values of the records it left behind; for a block one BeforeAllocated
   hook per settled auction, in store order, whose maps are the amounts then transferred), none of them vetoed; an
   operation that fails stopped at the first veto; a vetoed call is never followed by success; GENESIS, listener
   registration and bank sends call no hook.  Proofs: Proofs/Chk17.v (messages, API calls), Proofs/Chk17Block.v
   (blocks; the link itself). *)
From Coq Require Import ZArith NArith List.
From FR Require Import Dec Types Step Checkers.
From FR.Proofs Require Import InvDefs InvAll GenesisExamples Chk17 Chk17Block.
Import ListNotations.
Open Scope Z_scope.

Theorem C17_checker : forall s o, Inv s -> oracle_ok s o -> c17_ok (model_trans s o) = true.
Proof. intros s o I _. exact (c17_ok_model s o I). Qed.
Print Assumptions C17_checker.

(* the block part on its own: the hooks of a successful BeginBlocker against the block's transfers *)
Theorem C17_block_hooks : forall s t orc s',
  Inv s -> begin_block s t orc = Ok s' ->
  exists xs G,
    st_xfers s' = st_xfers s ++ xs /\ st_trace s' = st_trace s ++ expected_trace s G /\
    Forall2 hm (map (fun a => chk_hook xs (bids_of s (a_id a)) a) (filter (settles_in s') (st_auctions s))) G.
Proof. exact block_hooks. Qed.
Print Assumptions C17_block_hooks.

(* the hypotheses are satisfiable and the checker is not vacuous there: GenesisExamples.g_state (reached from the empty
   module by 12 accepted operations) with two listeners registered; the block below settles the batch auction 0 with
   the sweep order 2, 1, 3: one BeforeAllocated hook, offered to both listeners, with the allocation map
   {2: 100, 3: 30} and the refund map {2: 10, 3: 45} - the amounts of the block's transfers *)
Definition ex_s : state := with_listeners g_state [[]; []].
Definition ex_t : trans := model_trans ex_s (OBlock (300 * day_ns) [(0%N, [2%N; 1%N; 3%N])]).
(* evaluated once *)
Definition ex_t_nf : trans := Eval vm_compute in ex_t.
Lemma ex_t_eq : ex_t = ex_t_nf.
Proof. unfold ex_t, ex_s. rewrite g_state_eq. vm_compute. reflexivity. Qed.
Example C17_checker_ex_Inv : Inv ex_s.
Proof. apply Inv_with_listeners, g_state_Inv. Qed.
Example C17_checker_ex :
  c17_ok ex_t = true /\ t_class ex_t = KBlockOk
  /\ map h_args (t_trace ex_t) = [[0; 2; 2; 100; 3; 30; 2; 2; 10; 3; 45]; [0; 2; 2; 100; 3; 30; 2; 2; 10; 3; 45]]
  /\ expected_hooks ex_t = [(H_BeforeAllocated, [0; 2; 2; 100; 3; 30; 2; 2; 10; 3; 45])].
Proof. rewrite !ex_t_eq. vm_compute. repeat split; reflexivity. Qed.

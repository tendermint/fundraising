(* C09, checker link: the executable monitor Checkers.c09_ok (settlement: the instalments are the weight shares of
   what went into the vesting escrow; every block: exactly the due unreleased instalments are paid, once) can
   never fire on a transition the model makes from a state satisfying the invariant.  A `false` on an
   implementation trace is therefore a behaviour outside the model.  Its two conjuncts are also stated on their own
   (over Chk09.trans_of, from a state with an empty transfer log), and C09_all_checker adds c09_live.
   Proofs: Proofs/Chk09.v. *)
From Coq Require Import ZArith List Bool.
From FR Require Import Types Model Checkers.
From FR.Proofs Require Import InvDefs Chk09.
From FR.Properties Require C09_release.
Import ListNotations.
Open Scope Z_scope.

Theorem C09_checker : forall s o, Inv s -> oracle_ok s o -> c09_ok (model_trans s o) = true.
Proof. intros s o I _. exact (c09_ok_model s o I). Qed.
Print Assumptions C09_checker.

Theorem C09_checker_settlement : forall s o, Inv s -> st_xfers s = [] -> c09_settle_part (trans_of s o) = true.
Proof. exact c09_settle_trans. Qed.
Print Assumptions C09_checker_settlement.

Theorem C09_checker_release : forall s o, Inv s -> st_xfers s = [] -> c09_release_part (trans_of s o) = true.
Proof. exact c09_release_trans. Qed.
Print Assumptions C09_checker_release.

(* the checker the driver evaluates for C09: c09_ok and c09_live (a block at or after a release time fails, while the
   instalment is due, only when a listener vetoes - otherwise the instalment would not be paid "in the first block at
   or after its release time") *)
Theorem C09_all_checker : forall s o, Inv s -> oracle_ok s o -> c09_all (model_trans s o) = true.
Proof. exact Chk09.c09_all_model. Qed.
Print Assumptions C09_all_checker.

Theorem C09_checker_parts : forall t, c09_ok t = c09_settle_part t && c09_release_part t.
Proof. exact c09_ok_parts. Qed.

(* the checker is not vacuous: evaluated (a test of c09_ok itself, which an appeal to C09_checker would not be), it is
   true on transitions that settle (C09_release.ex_settled), release two instalments at once (ex_two_at_once), release
   the last one (ex_finished), and settle without a schedule (C09_release.ex_no_schedule) *)
Example ex_settle : c09_ok (model_trans (run C09_release.ex_init [C09_release.ex_create; C09_release.ex_allow; C09_release.ex_bid])
                                        (OBlock 200 [])) = true.
Proof. rewrite !C09_release.ex_s0_eq. vm_compute. reflexivity. Qed.
Example ex_release_two : c09_ok (model_trans C09_release.ex_s1 (OBlock 450 [])) = true.
Proof. rewrite !C09_release.ex_s1_eq. vm_compute. reflexivity. Qed.
Example ex_release_last : c09_ok (model_trans C09_release.ex_s3 (OBlock 500 [])) = true.
Proof. rewrite !C09_release.ex_s3_eq. vm_compute. reflexivity. Qed.
Example ex_no_schedule : c09_ok (model_trans C09_release.ex_t0 (OBlock 200 [])) = true.
Proof. rewrite !C09_release.ex_t0_eq. vm_compute. reflexivity. Qed.
(* and it does fire on a wrong observation: the same transition with one released flag cleared in the post-state *)
Example ex_fires :
  let t := model_trans C09_release.ex_s1 (OBlock 450 []) in
  c09_ok {| t_pre := t_pre t; t_op := t_op t; t_class := t_class t; t_xfers := t_xfers t; t_trace := t_trace t;
            t_post := with_vqs (t_post t) (map (fun v => set_v_released v false) (st_vqs (t_post t)));
            t_fault := t_fault t; t_gen_valid := t_gen_valid t |} = false.
Proof. rewrite !C09_release.ex_s1_eq. vm_compute. reflexivity. Qed.

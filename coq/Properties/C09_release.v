(* C09 (release part): "each instalment is paid to the auctioneer in the first block at or after its
   release time and never again; an auction without a schedule pays all proceeds at settlement",
   and J7 (InvDefs.vqs_wf): the vesting-queue part of the global invariant is preserved.
   Model: Step.release_loop / apply_vesting / process (VestingS branch).
   Proofs: Proofs/VestingRelease.v (release_loop, over the vocabulary of VestingFacts.v), Proofs/VestingInv.v
   (invariant, never again). *)
From Coq Require Import ZArith NArith List Bool Lia.
From FR Require Import Dec Types Match Step Genesis Model.
From FR.Proofs Require Import FrameFacts BlockFacts BlockWalk InvDefs VestingFacts VestingRelease VestingInv LedgerSettle.
From FR.Proofs Require TxFacts InvStaticBase ListFacts.
Import ListNotations.
Open Scope Z_scope.

(* Terms of the statements below (Proofs/BlockFacts.v, Proofs/VestingFacts.v), for what ReleaseVestingPayingCoin does:
   vq_due t v           : v's time has come and v is not released;  due_of t vs: the due entries of vs, in queue order
   paid_of t vs         : the due entries with a non-zero amount; xfer_of a v is the transfer of v_amt v in v_denom v
                          from Escrow Vesting (a_id a) to User (a_auctioneer a) that each of them gets
   release_vq id t x    : x flagged released when it belongs to auction id and is due at t
   rel_spec a t vs s s' : all fourteen fields of s' in terms of s (the record in VestingFacts.v). *)

(* every block processes an auction in status VestingS by releasing its own queue at the block time: so an
   instalment is paid in the first block whose time is at or after its release time *)
Theorem C09_block_releases : forall t orc s a,
  a_status a = VestingS -> process t orc s a = release_loop s a t (vqs_of s (a_id a)).
Proof. intros t orc s a H. unfold process. rewrite H. reflexivity. Qed.
Print Assumptions C09_block_releases.

(* for ANY list vs (this is the statement the induction needs: the loop walks vs but updates st_vqs by key) *)
Theorem C09_release_loop_effect : forall a t vs s s',
  release_loop s a t vs = Ok s' -> rel_spec a t vs s s'.
Proof. intros a t vs s s' H. apply release_loop_state in H. subst s'. apply released_spec. Qed.
Print Assumptions C09_release_loop_effect.

Theorem C09_release_loop_state : forall a t vs s s',
  release_loop s a t vs = Ok s' -> s' = released_state s a t vs.
Proof. exact release_loop_state. Qed.
Print Assumptions C09_release_loop_state.

(* for the call BeginBlocker makes (vs = the auction's own queue), with unique keys: exactly the due
   entries of this auction become released; every other queue entry of every auction is unchanged; no entry
   is added or removed *)
Theorem C09_release_own : forall s a t s',
  NoDup (map vkey (st_vqs s)) ->
  release_loop s a t (vqs_of s (a_id a)) = Ok s' ->
  rel_spec a t (vqs_of s (a_id a)) s s' /\
  st_vqs s' = map (release_vq (a_id a) t) (st_vqs s) /\
  vqs_of s' (a_id a) = map (release_vq (a_id a) t) (vqs_of s (a_id a)) /\
  (forall j, j <> a_id a -> vqs_of s' j = vqs_of s j).
Proof.
  intros s a t s' ND H. split; [apply release_loop_state in H; subst s'; apply released_spec|].
  apply release_loop_state in H. subst s'. split; [exact (released_vqs s a t ND)|]. split.
  - rewrite (released_vqs_of s a t _ ND), N.eqb_refl. reflexivity.
  - intros j Hj. rewrite (released_vqs_of s a t j ND). apply N.eqb_neq in Hj. rewrite Hj. reflexivity.
Qed.
Print Assumptions C09_release_own.

Theorem C09_release_flag : forall id t x,
  v_released (release_vq id t x) = v_released x || (N.eqb (v_auction x) id && (v_time x <=? t)).
Proof. exact release_vq_flag. Qed.
Print Assumptions C09_release_flag.

Theorem C09_release_balances : forall a t vs s s' pd,
  rel_spec a t vs s s' -> (forall v, In v vs -> vq_due t v = true -> v_denom v = pd) ->
  let paid := sumZ (map v_amt (due_of t vs)) in
  st_bal s' (Escrow Vesting (a_id a)) pd = st_bal s (Escrow Vesting (a_id a)) pd - paid
  /\ st_bal s' (User (a_auctioneer a)) pd = st_bal s (User (a_auctioneer a)) pd + paid
  /\ (forall x d, d <> pd -> st_bal s' x d = st_bal s x d)
  /\ (forall x d, x <> Escrow Vesting (a_id a) -> x <> User (a_auctioneer a) -> st_bal s' x d = st_bal s x d).
Proof. exact rel_spec_balances. Qed.
Print Assumptions C09_release_balances.

(* the loop cannot fail (never Err) when the amounts are non-negative and the vesting escrow holds at least
   the unreleased amounts (the Vesting clause of InvDefs.escrow_inv) *)
Theorem C09_release_never_fails : forall s a t,
  NoDup (map vkey (st_vqs s)) ->
  (forall v, In v (vqs_of s (a_id a)) -> 0 <= v_amt v /\ v_denom v = a_pay_denom a) ->
  sumZ (map v_amt (filter (fun v => negb (v_released v)) (vqs_of s (a_id a))))
    <= st_bal s (Escrow Vesting (a_id a)) (a_pay_denom a) ->
  exists s', release_loop s a t (vqs_of s (a_id a)) = Ok s' /\
    rel_spec a t (vqs_of s (a_id a)) s s' /\
    st_vqs s' = map (release_vq (a_id a) t) (st_vqs s) /\
    let paid := sumZ (map v_amt (due_of t (vqs_of s (a_id a)))) in
    0 <= paid /\
    st_bal s' (Escrow Vesting (a_id a)) (a_pay_denom a) = st_bal s (Escrow Vesting (a_id a)) (a_pay_denom a) - paid /\
    st_bal s' (User (a_auctioneer a)) (a_pay_denom a) = st_bal s (User (a_auctioneer a)) (a_pay_denom a) + paid /\
    (forall x d, d <> a_pay_denom a -> st_bal s' x d = st_bal s x d) /\
    (forall x d, x <> Escrow Vesting (a_id a) -> x <> User (a_auctioneer a) -> st_bal s' x d = st_bal s x d) /\
    (forall u d, st_bal s (User u) d <= st_bal s' (User u) d).
Proof. exact release_loop_ok. Qed.
Print Assumptions C09_release_never_fails.

(* never again, within one release: an entry that is already released is not due, gets no transfer, and is left alone *)
Theorem C09_released_not_paid_again : forall id t vs v,
  v_released v = true -> vq_due t v = false /\ ~ In v (paid_of t vs) /\ release_vq id t v = v.
Proof.
  intros id t vs v R. split; [apply released_not_due; exact R|].
  split; [apply released_not_paid; exact R|apply released_unchanged; exact R].
Qed.
Print Assumptions C09_released_not_paid_again.

(* never again, across operations other than GENESIS: the store of vesting queues only evolves by flagging entries
   released and appending new ones; in particular a released entry stays as it is *)
Theorem C09_queues_evolve : forall s o, o <> OGenesis -> vqs_evolve s (snd (step s o)).
Proof. exact step_vqs_evolve. Qed.
Print Assumptions C09_queues_evolve.

Theorem C09_queues_evolve_run : forall ops s, Forall (fun o => o <> OGenesis) ops -> vqs_evolve s (run s ops).
Proof.
  intros ops s H. apply (TxFacts.run_ind (fun o => o <> OGenesis) (vqs_evolve s)); [|exact H|apply vqs_evolve_refl].
  intros s1 o Ho E. exact (vqs_evolve_trans _ _ _ E (step_vqs_evolve s1 o Ho)).
Qed.
Print Assumptions C09_queues_evolve_run.

Theorem C09_released_never_reset : forall s o v,
  o <> OGenesis -> In v (st_vqs s) -> v_released v = true -> In v (st_vqs (snd (step s o))).
Proof.
  intros s o v Hg Hv R. destruct (step_vqs_evolve s o Hg) as (l & new & E & F).
  destruct (ListFacts.Forall2_in_l _ _ _ _ F Hv) as (y & Hy & [->|[R' _]]); [|congruence].
  rewrite E. apply in_or_app. left. exact Hy.
Qed.
Print Assumptions C09_released_never_reset.

Theorem C09_entry_never_removed : forall s s' v,
  vqs_evolve s s' -> In v (st_vqs s) ->
  exists v', In v' (st_vqs s') /\ vkey v' = vkey v /\ v_auctioneer v' = v_auctioneer v /\ v_denom v' = v_denom v
             /\ v_amt v' = v_amt v /\ (v_released v = true -> v_released v' = true).
Proof.
  intros s s' v (l & new & E & F) Hv. destruct (ListFacts.Forall2_in_l _ _ _ _ F Hv) as (y & Hy & Hr).
  exists y. split; [rewrite E; apply in_or_app; left; exact Hy|].
  destruct Hr as [->|[_ ->]]; repeat split; auto.
Qed.
Print Assumptions C09_entry_never_removed.

(* released = paid: the transfers of a release are, in order, those of the entries whose flag flips
   in it and whose amount is not zero *)
Theorem C09_released_iff_paid : forall s a t s',
  NoDup (map vkey (st_vqs s)) -> release_loop s a t (vqs_of s (a_id a)) = Ok s' ->
  let vs := vqs_of s (a_id a) in
  let flipped := filter (fun v => negb (v_released v) && v_released (release_vq (a_id a) t v)) vs in
  vqs_of s' (a_id a) = map (release_vq (a_id a) t) vs
  /\ (forall v, In v vs -> v_released (release_vq (a_id a) t v) = v_released v || (v_time v <=? t))
  /\ st_xfers s' = st_xfers s ++ map (xfer_of a) (filter (fun v => negb (v_amt v =? 0)) flipped).
Proof. exact released_iff_paid. Qed.
Print Assumptions C09_released_iff_paid.

(* J7 is kept by every operation other than GENESIS (for GENESIS: C15_Inv_genesis).  Assumed of the rest of the
   invariant: J1 (ids_seq, used as ids_ok) and the schedule field of J2 (auctions_wf).  The oracle hypothesis is not
   needed; the second form, over the parts of Inv by name, carries it all the same. *)
Theorem C09_vqs_wf_step : forall s o,
  ids_ok s -> scheds_all_wf s -> vqs_wf s -> o <> OGenesis -> vqs_wf (snd (step s o)).
Proof. exact vqs_wf_step. Qed.
Print Assumptions C09_vqs_wf_step.

Theorem C09_vqs_wf_step_inv : forall s o,
  ids_seq s -> auctions_wf s -> vqs_wf s -> oracle_ok s o -> o <> OGenesis -> vqs_wf (snd (step s o)).
Proof.
  intros s o I1 I2 W _ Hg.
  apply vqs_wf_step; [apply InvStaticBase.ids_seq_ids_ok|apply auctions_wf_scheds| |]; assumption.
Qed.
Print Assumptions C09_vqs_wf_step_inv.

Theorem C09_vqs_wf_step_Inv : forall s o, Inv s -> o <> OGenesis -> vqs_wf (snd (step s o)).
Proof.
  intros s o I Hg. apply vqs_wf_step; [apply InvStaticBase.ids_seq_ids_ok, (inv_ids s I)|
    apply auctions_wf_scheds, (inv_auctions s I)|apply (inv_vqs s I)|exact Hg].
Qed.
Print Assumptions C09_vqs_wf_step_Inv.

Theorem C09_vqs_wf_process : forall t orc s a s',
  ids_ok s -> vqs_wf s -> find_auction s (a_id a) = Some a -> scheds_wf a ->
  process t orc s a = Ok s' -> vqs_wf s'.
Proof. exact vqs_wf_process. Qed.
Print Assumptions C09_vqs_wf_process.

Theorem C09_vqs_wf_process_all : forall t orc l s s',
  ids_ok s -> vqs_wf s -> NoDup (map a_id l) ->
  (forall a, In a l -> find_auction s (a_id a) = Some a /\ scheds_wf a) ->
  process_all t orc s l = Ok s' -> vqs_wf s' /\ ids_ok s'.
Proof. exact vqs_wf_process_all. Qed.
Print Assumptions C09_vqs_wf_process_all.

(* validated schedules have strictly increasing release times: the due entries are a prefix of the
   unreleased ones, so the released flags stay a prefix *)
Theorem C09_scheds_increasing : forall vs e prev acc,
  scheds_ok vs e prev acc = true -> Sorted.StronglySorted Z.lt (map s_time vs).
Proof. exact scheds_ok_sorted. Qed.
Print Assumptions C09_scheds_increasing.

(* no schedule: all proceeds at settlement, in one transfer, no queue, status Finished *)
Theorem C09_no_schedule : forall s a s',
  a_scheds a = [] -> apply_vesting s a = Ok s' ->
  0 <= st_bal s (Escrow Paying (a_id a)) (a_pay_denom a)
  /\ s' = put_auction (pay_all s a) (set_status a Finished).
Proof.
  intros s a s' ES H. apply apply_vesting_iff in H. destruct H as [Hr ->]. split; [exact Hr|exact (vested_no_sched s a ES)].
Qed.
Print Assumptions C09_no_schedule.

Theorem C09_no_schedule_effects : forall s a s',
  a_scheds a = [] -> apply_vesting s a = Ok s' ->
  let r := st_bal s (Escrow Paying (a_id a)) (a_pay_denom a) in
  st_vqs s' = st_vqs s
  /\ st_xfers s' = st_xfers s ++ (if r =? 0 then [] else [{| x_from := Escrow Paying (a_id a);
                                     x_to := User (a_auctioneer a); x_denom := a_pay_denom a; x_amt := r |}])
  /\ st_bal s' (Escrow Paying (a_id a)) (a_pay_denom a) = 0
  /\ st_bal s' (User (a_auctioneer a)) (a_pay_denom a) = st_bal s (User (a_auctioneer a)) (a_pay_denom a) + r
  /\ (forall a0, find_auction s (a_id a) = Some a0 -> find_auction s' (a_id a) = Some (set_status a Finished))
  /\ (forall j, j <> a_id a -> find_auction s' j = find_auction s j).
Proof. exact no_sched_effects. Qed.
Print Assumptions C09_no_schedule_effects.

Theorem C09_no_schedule_never_fails : forall s a,
  a_scheds a = [] -> 0 <= st_bal s (Escrow Paying (a_id a)) (a_pay_denom a) ->
  apply_vesting s a = Ok (put_auction (pay_all s a) (set_status a Finished)).
Proof. intros s a ES Hr. apply apply_vesting_iff. split; [exact Hr|symmetry; exact (vested_no_sched s a ES)]. Qed.
Print Assumptions C09_no_schedule_never_fails.

(* both kinds of settlement end with apply_vesting, after steps that only move coins and call hooks *)
Theorem C09_settlement_ends_with_vesting : forall s a s',
  close_fixed s a = Ok s' -> exists s1, bt_only (a_id a) s s1 /\ apply_vesting s1 a = Ok s'.
Proof. intros s a s'. rewrite close_fixed_gen. apply settle_gen_vesting. Qed.
Print Assumptions C09_settlement_ends_with_vesting.
Theorem C09_batch_settlement_ends_with_vesting : forall s a mi s',
  settle_batch s a mi = Ok s' -> exists s1, bt_only (a_id a) s s1 /\ apply_vesting s1 a = Ok s'.
Proof. intros s a mi s'. rewrite settle_batch_gen. apply settle_gen_vesting. Qed.
Print Assumptions C09_batch_settlement_ends_with_vesting.

(* example: three instalments (1/4 at 300, 1/4 at 400, 1/2 at 500) of proceeds 400 *)
Definition ex_init : state :=
  {| st_params := {| p_cfee := []; p_bfee := []; p_period := 1 |};
     st_auctions := []; st_bids := []; st_allowed := []; st_vqs := [];
     st_aseq := 0; st_bseq := fun _ => 0%N; st_mlen := fun _ => 0;
     st_bal := fun a _ => match a with User _ => 1000000 | _ => 0 end;
     st_now := 100; st_listeners := []; st_switch := true; st_xfers := []; st_trace := [] |}.
Definition coin (d : N) (a : Z) : mcoin := {| mc_denom := Some d; mc_amt := Some a |}.
Definition ex_create : op :=
  OTx (MCreateFixed (AGood false 0) (Some P) (coin 1 1000) (Some 2%N)
         [ {| ms_time := 300; ms_weight := Some (P / 4) |}; {| ms_time := 400; ms_weight := Some (P / 4) |};
           {| ms_time := 500; ms_weight := Some (P / 2) |} ] 50 200).
Definition ex_allow : op := OTx (MAddAllowed 0 0 (AGood false 7) (Some 1000)).
Definition ex_bid : op := OTx (MPlaceBid (AGood false 7) 0 1 (Some P) (coin 2 400)).

Definition view (s : state) : list (Z * Z * bool) := map (fun v => (v_time v, v_amt v, v_released v)) (st_vqs s).
Definition new_xfers (s s' : state) : list xfer := skipn (length (st_xfers s)) (st_xfers s').
Definition pay (amt : Z) : xfer := {| x_from := Escrow Vesting 0; x_to := User 0; x_denom := 2; x_amt := amt |}.

(* settlement at the end time creates the queue *)
Definition ex_s1 : state := run ex_init [ex_create; ex_allow; ex_bid; OBlock 200 []].
(* evaluated once (ExampleRuns.v); s0: ex_s1 before its block *)
Definition ex_s0_nf : state := Eval vm_compute in run ex_init [ex_create; ex_allow; ex_bid].
Lemma ex_s0_eq : run ex_init [ex_create; ex_allow; ex_bid] = ex_s0_nf.
Proof. vm_compute. reflexivity. Qed.
Definition ex_s1_nf : state := Eval vm_compute in snd (step ex_s0_nf (OBlock 200 [])).
Lemma ex_s1_eq : ex_s1 = ex_s1_nf.
Proof.
  unfold ex_s1. change [ex_create; ex_allow; ex_bid; OBlock 200 []] with ([ex_create; ex_allow; ex_bid] ++ [OBlock 200 []]).
  rewrite TxFacts.run_snoc, ex_s0_eq. vm_compute. reflexivity.
Qed.
Example ex_settled :
  map a_status (st_auctions ex_s1) = [VestingS]
  /\ view ex_s1 = [(300, 100, false); (400, 100, false); (500, 200, false)]
  /\ st_bal ex_s1 (Escrow Vesting 0) 2%N = 400.
Proof. rewrite !ex_s1_eq. vm_compute. repeat split. Qed.

(* a block that skips two release times pays both instalments at once, in order *)
Definition ex_s2 : state := snd (step ex_s1 (OBlock 450 [])).
Definition ex_s2_nf : state := Eval vm_compute in snd (step ex_s1_nf (OBlock 450 [])).
Lemma ex_s2_eq : ex_s2 = ex_s2_nf.
Proof. unfold ex_s2. rewrite ex_s1_eq. vm_compute. reflexivity. Qed.
Example ex_two_at_once :
  new_xfers ex_s1 ex_s2 = [pay 100; pay 100]
  /\ view ex_s2 = [(300, 100, true); (400, 100, true); (500, 200, false)]
  /\ map a_status (st_auctions ex_s2) = [VestingS].
Proof. rewrite !ex_s2_eq, !ex_s1_eq. vm_compute. repeat split. Qed.

(* the next block pays nothing *)
Definition ex_s3 : state := snd (step ex_s2 (OBlock 460 [])).
Definition ex_s3_nf : state := Eval vm_compute in snd (step ex_s2_nf (OBlock 460 [])).
Lemma ex_s3_eq : ex_s3 = ex_s3_nf.
Proof. unfold ex_s3. rewrite ex_s2_eq. vm_compute. reflexivity. Qed.
Example ex_nothing : new_xfers ex_s2 ex_s3 = [] /\ view ex_s3 = view ex_s2.
Proof. rewrite !ex_s3_eq, !ex_s2_eq. vm_compute. repeat split. Qed.

(* the last instalment finishes the auction; nothing is ever paid after that *)
Definition ex_s4 : state := snd (step ex_s3 (OBlock 500 [])).
Definition ex_s4_nf : state := Eval vm_compute in snd (step ex_s3_nf (OBlock 500 [])).
Lemma ex_s4_eq : ex_s4 = ex_s4_nf.
Proof. unfold ex_s4. rewrite ex_s3_eq. vm_compute. reflexivity. Qed.
Example ex_finished :
  new_xfers ex_s3 ex_s4 = [pay 200]
  /\ view ex_s4 = [(300, 100, true); (400, 100, true); (500, 200, true)]
  /\ map a_status (st_auctions ex_s4) = [Finished]
  /\ st_bal ex_s4 (Escrow Vesting 0) 2%N = 0.
Proof. rewrite !ex_s4_eq, !ex_s3_eq. vm_compute. repeat split. Qed.
Example ex_after : new_xfers ex_s4 (snd (step ex_s4 (OBlock 900 []))) = [].
Proof. rewrite !ex_s4_eq. vm_compute. reflexivity. Qed.

(* the hypotheses of the theorems hold in these states *)
Example ex_keys_unique : NoDup (map vkey (st_vqs ex_s1)).
Proof. rewrite !ex_s1_eq. vm_compute. repeat constructor; cbn; intuition discriminate. Qed.
Example ex_funded :
  (sumZ (map v_amt (filter (fun v => negb (v_released v)) (vqs_of ex_s1 0)))
   <=? st_bal ex_s1 (Escrow Vesting 0) 2%N) = true.
Proof. rewrite !ex_s1_eq. vm_compute. reflexivity. Qed.
Example ex_init_wf : ids_ok ex_init /\ scheds_all_wf ex_init /\ vqs_wf ex_init.
Proof.
  split; [split; constructor|]. split; [constructor|].
  split; [constructor|]. split; [constructor|]. intros a [].
Qed.

(* no schedule: everything at settlement *)
Definition ex_create0 : op := OTx (MCreateFixed (AGood false 0) (Some P) (coin 1 1000) (Some 2%N) [] 50 200).
Definition ex_t0 : state := run ex_init [ex_create0; ex_allow; ex_bid].
Definition ex_t0_nf : state := Eval vm_compute in ex_t0.
Lemma ex_t0_eq : ex_t0 = ex_t0_nf.
Proof. vm_compute. reflexivity. Qed.
Definition ex_t1 : state := snd (step ex_t0 (OBlock 200 [])).
Definition ex_t1_nf : state := Eval vm_compute in snd (step ex_t0_nf (OBlock 200 [])).
Lemma ex_t1_eq : ex_t1 = ex_t1_nf.
Proof. unfold ex_t1. rewrite ex_t0_eq. vm_compute. reflexivity. Qed.
Example ex_no_schedule :
  last (new_xfers ex_t0 ex_t1) (pay 0)
    = {| x_from := Escrow Paying 0; x_to := User 0; x_denom := 2; x_amt := 400 |}
  /\ st_vqs ex_t1 = [] /\ map a_status (st_auctions ex_t1) = [Finished].
Proof. rewrite !ex_t1_eq, !ex_t0_eq. vm_compute. repeat split. Qed.

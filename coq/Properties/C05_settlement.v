(* C05 at the level of the bank transfers of a settlement (composition of ChkSettle.settling_step, C05_batch and the global
   invariant): in every reachable state, when BeginBlocker settles an auction, the selling coins that leave its
   escrow towards bidder u are exactly alloc u, with sum alloc <= offered; for a batch auction alloc u is at most u's
   maximum bid amount as of settlement and at most what u's bids ask for at the clearing price; for a fixed price
   auction alloc u is the sum of the quantities of u's accepted bids (each accepted within the allowance of its
   moment, C06_accept_iff).  An auction settles at most once (C08_forward), and before settlement nothing leaves the
   selling escrow except by cancellation (C01_step: its excess is unchanged), so these are all the selling coins it
   ever distributes. *)
From Coq Require Import ZArith NArith List.
From FR Require Import Types Match Step Spec Checkers.
From FR.Proofs Require Import InvDefs EscrowBase MatchSweep Ledger LedgerSettle.
From FR.Proofs Require ChkSettle.
From FR.Properties Require C05_batch.
Import ListNotations.
Open Scope Z_scope.

Theorem C05_settlement : forall t orc s a s' a',
  Inv s -> find_auction s (a_id a) = Some a -> a_status a = Started -> process t orc s a = Ok s' ->
  find_auction s' (a_id a) = Some a' -> (a_status a' = VestingS \/ a_status a' = Finished) ->
  exists mi wr,
    ledger_by s s' (settle_xfers s a mi wr)
    (* what bidder u receives out of the selling escrow (the auctioneer, if he bids, receives the unsold coins too) *)
    /\ (forall u, sum_xfers (settle_xfers s a mi wr) (from_to (Escrow Selling (a_id a)) (User u) (a_sell_denom a))
                  = (if existsb (N.eqb u) (mi_bidders mi) then mi_alloc mi u else 0)
                    + (if N.eqb (a_auctioneer a) u then unsold_of s a mi else 0))
    /\ (forall u, 0 <= mi_alloc mi u)
    /\ total_of (mi_bidders mi) (mi_alloc mi) <= a_sell_amt a
    /\ (wr = true -> a_type a = Batch /\ forall u,
          mi_alloc mi u <= cap_of (allowed_of s (a_id a)) u
          /\ mi_alloc mi u <= asked (mi_price mi) u (bids_of s (a_id a)))
    /\ (wr = false -> a_type a = FixedPrice /\ forall u,
          mi_alloc mi u = sumZ (map (sell_amount (a_pay_denom a))
                                    (filter (fun b => N.eqb (b_bidder b) u) (bids_of s (a_id a))))).
Proof.
  intros t orc s a s' a' I Fa St H Fa' Hst'.
  destruct (ChkSettle.settling_step t orc s a s' a' I Fa St H Fa' Hst') as (mi & wr & L & V).
  pose proof (ChkSettle.sv_book V) as BW. pose proof (ChkSettle.sv_supply V) as Hsup.
  pose proof (ChkSettle.sv_settles V) as Hw. pose proof (ChkSettle.sv_dues V) as D.
  exists mi, wr. split; [exact L|].
  split; [intros u; rewrite (du_bidders _ _ _ _ D); exact (ChkSettle.sv_received V u)|].
  split; [apply (du_alloc _ _ _ _ D)|]. split; [apply (du_alloc_sum _ _ _ _ D)|].
  destruct wr.
  - destruct (settles_with_batch _ _ _ _ _ Hw) as (Ty & _ & order & HV & HC).
    split; [|discriminate]. intros _. split; [exact Ty|]. intros u.
    destruct (C05_batch.C05_batch_alloc_bounds a _ _ order _ mi BW HV Hsup HC) as (B1 & B2 & _).
    split; [apply B1|apply B2].
  - destruct (settles_with_fixed _ _ _ _ _ Hw) as [Ty _].
    split; [discriminate|]. intros _. split; [exact Ty|]. intros u. apply (du_fixed _ _ _ _ D eq_refl u).
Qed.
Print Assumptions C05_settlement.

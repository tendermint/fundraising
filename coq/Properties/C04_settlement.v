(* C04 at the level of the bank transfers of a batch settlement (the facts behind C02_settlement and C04_batch put
   together in ChkSettle.settling_step, and the global invariant): in every state satisfying Inv, when BeginBlocker settles a batch auction at clearing price p,
   bidder u gets back refund u out of the paying escrow, so he pays  paid u = reserved u - refund u  with
       0 <= refund u <= reserved u     and     p * alloc u <= paid u * 10^18 <= p * alloc u + k_u * (10^18 - 1),
   k_u the number of u's matched bids: everybody pays the same uniform price p per coin, rounded up by less than
   one unit per matched bid, never more than reserved. *)
From Coq Require Import ZArith NArith List.
From FR Require Import Dec Types Match Step Checkers.
From FR.Proofs Require Import InvDefs Ledger LedgerSettle.
From FR.Proofs Require MatchConseq ChkSettle.
Import ListNotations.
Open Scope Z_scope.

Theorem C04_settlement : forall t orc s a s' a',
  Inv s -> find_auction s (a_id a) = Some a -> a_status a = Started -> a_type a = Batch ->
  process t orc s a = Ok s' ->
  find_auction s' (a_id a) = Some a' -> (a_status a' = VestingS \/ a_status a' = Finished) ->
  let bs := bids_of s (a_id a) in
  exists mi,
    ledger_by s s' (settle_xfers s a mi true)
    /\ (forall u, sum_xfers (settle_xfers s a mi true) (from_to (Escrow Paying (a_id a)) (User u) (a_pay_denom a))
                  = (if existsb (N.eqb u) (bidders_of bs) then mi_refund mi u else 0)
                    + (if match a_scheds a with [] => N.eqb (a_auctioneer a) u | _ => false end
                       then proceeds_of s a mi true else 0))
    /\ (forall u, 0 <= mi_refund mi u <= reserved_of (a_pay_denom a) bs u)
    /\ (forall u, let paid := reserved_of (a_pay_denom a) bs u - mi_refund mi u in
                  mi_price mi * mi_alloc mi u <= paid * P
                  <= mi_price mi * mi_alloc mi u + MatchConseq.matched_count bs (mi_matched mi) u * (P - 1)).
Proof.
  intros t orc s a s' a' I Fa St Ty H Fa' Hst' bs. subst bs.
  destruct (ChkSettle.settling_step t orc s a s' a' I Fa St H Fa' Hst') as (mi & wr & L & V).
  pose proof (ChkSettle.sv_dues V) as D.
  pose proof (settles_with_wr _ _ _ _ _ _ (ChkSettle.sv_settles V)) as Ew. rewrite Ty in Ew. subst wr.
  exists mi. split; [exact L|]. split; [exact (ChkSettle.sv_refunded V)|].
  split; [apply (du_refund _ _ _ _ D)|]. intros u. apply (du_batch _ _ _ _ D eq_refl u).
Qed.
Print Assumptions C04_settlement.

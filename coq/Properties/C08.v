(* C08 lifecycle: what each operation of Model.step may do to the status of an auction.
   Proofs: Proofs/FrameFacts.v, TxFacts.v, BlockFacts.v, LifeTheorems.v, GenesisFacts.v.
   Where a statement speaks of an arbitrary operation, OGenesis is excluded by an explicit hypothesis, except in
   C08_forward_all and C08_gen_ok_invariant (under gen_ok). *)
From Coq Require Import ZArith NArith List Lia.
From FR Require Import Dec Types Step Model Spec.
From FR.Proofs Require Import FrameFacts TxFacts BlockFacts BlockWalk LifeTheorems GenesisFacts LifeExamples.
Import ListNotations.
Open Scope Z_scope.

(* no operation removes an auction or moves its status other than forward *)
Theorem C08_forward : forall s o id a,
  ids_ok s -> o <> OGenesis -> find_auction s id = Some a ->
  exists a', find_auction (snd (step s o)) id = Some a' /\ forward (a_status a) (a_status a') = true.
Proof.
  intros s o id a OK Hg F. destruct (step_auction s o id a OK Hg F) as (a' & F' & R).
  exists a'. split; [exact F'|]. exact (astep_forward _ _ _ _ R).
Qed.
Print Assumptions C08_forward.

(* the same for every operation, GENESIS included, under the stronger invariant
   gen_ok s := map a_id (st_auctions s) = ids_upto (st_aseq s), which every step preserves *)
Theorem C08_forward_all : forall s o id a,
  gen_ok s -> find_auction s id = Some a ->
  exists a', find_auction (snd (step s o)) id = Some a' /\ forward (a_status a) (a_status a') = true.
Proof.
  intros s o id a G F. destruct (step_astep s o id a (or_introl G) F) as (a' & F' & R).
  exists a'. split; [exact F'|exact (astep_forward _ _ _ _ R)].
Qed.
Print Assumptions C08_forward_all.

Theorem C08_gen_ok_invariant : forall s o, gen_ok s -> gen_ok (snd (step s o)) /\ ids_ok s.
Proof. intros s o G. split; [apply gen_ok_step; exact G|apply InvStaticBase.ids_seq_ids_ok; exact G]. Qed.
Print Assumptions C08_gen_ok_invariant.

(* outside block processing a status changes only by an accepted cancellation of that very auction *)
Theorem C08_only_block_or_cancel : forall s o id a a',
  o <> OGenesis -> is_block o = false ->
  find_auction s id = Some a -> find_auction (snd (step s o)) id = Some a' ->
  a_status a' = a_status a
  \/ (fst (step s o) = Accepted /\ (exists who, o = OTx (MCancel who id))
      /\ a_status a = StandBy /\ a_status a' = Cancelled).
Proof.
  intros s o id a a' Hg B F F'. pose proof (step_shape s o B Hg) as Sh.
  destruct (tx_auction _ _ _ _ id a Sh F) as (a'' & F'' & R).
  assert (a'' = a') by congruence. subst a''.
  destruct R as [|who St Ho Hc|who bt p c x St _ _].
  - left. reflexivity.
  - right. split; [exact Ho|]. split; [exists who; exact Hc|]. split; [exact St|]. unfold cancel_of. destruct (a_type a); reflexivity.
  - left. reflexivity.
Qed.
Print Assumptions C08_only_block_or_cancel.

(* a successful block: the exact new record of every auction (block_rel, BlockFacts.v),
   and its reading as timing conditions *)
Theorem C08_block_timing : forall s o id a,
  ids_ok s -> is_block o = true -> fst (step s o) = BlockOk -> find_auction s id = Some a ->
  exists a', find_auction (snd (step s o)) id = Some a'
    /\ block_rel (block_time o) (block_orc o) s a a'
    /\ match a_status a with
       | StandBy => (a_status a' = Started <-> a_start a <= block_time o)
                    /\ (block_time o < a_start a -> a' = a) /\ a_status a' <> Cancelled
       | Started => ((a_status a' = VestingS \/ a_status a' = Finished \/ exists e, a_ends a' = a_ends a ++ [e])
                     <-> last_end a <= block_time o)
                    /\ (block_time o < last_end a -> a' = a)
       | VestingS => (a_status a' = Finished <-> last_due (block_time o) (vqs_of s (a_id a)) = true)
                     /\ (last_due (block_time o) (vqs_of s (a_id a)) = false -> a' = a)
       | Finished | Cancelled => a' = a
       end.
Proof.
  intros s o id a OK B Ho F. assert (Hg : o <> OGenesis) by (intros ->; discriminate B).
  destruct (step_auction s o id a OK Hg F) as (a' & F' & R).
  destruct R as [[B'|(c & Hc)]|who -> _ _|who bt p c x -> _ _|a' _ _ R]; try congruence; try discriminate B.
  exists a'. split; [exact F'|]. split; [exact R|]. exact (block_out_timing _ _ _ _ _ (block_rel_out _ _ _ _ _ R)).
Qed.
Print Assumptions C08_block_timing.

(* a failing block (also an injected bank fault) leaves every auction record as it was *)
Theorem C08_block_failed : forall s o id a c,
  is_block o = true -> fst (step s o) = BlockErr c -> find_auction s id = Some a ->
  find_auction (snd (step s o)) id = Some a.
Proof.
  intros s o id a c B Ho F. destruct (step_block s o B) as [[Ho' _]|[_ (tr & ->)]]; [congruence|exact F].
Qed.
Print Assumptions C08_block_failed.

Theorem C08_creation_status : forall s m,
  ids_ok s -> is_create m = true -> fst (step s (OTx m)) = Accepted ->
  exists a, st_auctions (snd (step s (OTx m))) = st_auctions s ++ [a]
    /\ a_id a = st_aseq s /\ find_auction (snd (step s (OTx m))) (st_aseq s) = Some a
    /\ find_auction s (st_aseq s) = None
    /\ st_aseq (snd (step s (OTx m))) = (st_aseq s + 1)%N
    /\ a_status a = (if a_start a <=? st_now s then Started else StandBy)
    /\ (exists e, a_ends a = [e]) /\ (a_max_round a <= MaxExtendedRound)%N /\ (a_type a = FixedPrice -> a_max_round a = 0%N).
Proof.
  intros s m OK Hc Ho.
  destruct (tx_create _ _ _ (step_shape_acc _ _ Ho) Hc) as (a & C).
  pose proof (ids_ok_fresh s (st_aseq s) OK (N.le_refl _)) as Fr.
  exists a. split; [exact (cr_auctions C)|]. split; [exact (cr_id C)|]. split.
  { rewrite (find_auction_conv_app s _ a (st_aseq s) (cr_auctions C)), Fr, (cr_id C), N.eqb_refl. reflexivity. }
  split; [exact Fr|]. split; [exact (cr_aseq C)|]. split; [exact (cr_status C)|]. split; [exact (cr_ends C)|].
  split; [exact (cr_rounds C)|exact (cr_fixed C)].
Qed.
Print Assumptions C08_creation_status.

(* nothing but an accepted creation adds an auction or moves the counter *)
Theorem C08_no_other_creation : forall s o,
  ids_ok s -> o <> OGenesis ->
  (forall m, o = OTx m -> is_create m = true -> fst (step s o) <> Accepted) ->
  map a_id (st_auctions (snd (step s o))) = map a_id (st_auctions s) /\ st_aseq (snd (step s o)) = st_aseq s.
Proof.
  intros s o OK Hg Hn. destruct (step_ids s o OK Hg) as [(a & C)|H]; [|exact H].
  destruct (cr_msg C) as (m & -> & Hc). exfalso. exact (Hn m eq_refl Hc (cr_accepted C)).
Qed.
Print Assumptions C08_no_other_creation.

(* bids and modifications are accepted only while the auction is open *)
Theorem C08_bids_only_open_place : forall s who id bt price coin,
  fst (step s (OTx (MPlaceBid who id bt price coin))) = Accepted ->
  exists a, find_auction s id = Some a /\ a_status a = Started.
Proof.
  intros s who id bt price coin Ho.
  destruct (tx_place_inv (step_shape_acc _ _ Ho)) as (up & u & t & p & d & amt & a & _ & _ & F & G & _).
  exists a. split; [exact F|exact (pl_started G)].
Qed.
Print Assumptions C08_bids_only_open_place.

Theorem C08_bids_only_open_modify : forall s who id bid price coin,
  fst (step s (OTx (MModifyBid who id bid price coin))) = Accepted ->
  exists a, find_auction s id = Some a /\ a_status a = Started.
Proof.
  intros s who id bid price coin Ho.
  destruct (tx_modify_inv (step_shape_acc _ _ Ho)) as (up & u & p & d & amt & a & b0 & _ & _ & F & _ & G & _).
  exists a. split; [exact F|exact (md_started G)].
Qed.
Print Assumptions C08_bids_only_open_modify.

(* the hypotheses are satisfiable: a concrete state with a started fixed price auction (id 0)
   and a batch auction in stand-by (id 1) *)
Example ex_ids_ok_holds : ids_ok ex_s.
Proof. exact ex_ids_ok. Qed.
Example ex_gen_ok_holds : gen_ok ex_s.
Proof. rewrite !ex_s_eq. vm_compute. reflexivity. Qed.
Example ex_genesis_keeps_auctions :
  fst (step ex_s OGenesis) = GenOk true /\ st_auctions (snd (step ex_s OGenesis)) = st_auctions ex_s.
Proof. rewrite !ex_s_eq. vm_compute. split; reflexivity. Qed.
Example ex_two_auctions :
  map (fun a => (a_id a, a_type a, a_status a)) (st_auctions ex_s)
  = [(0%N, FixedPrice, Started); (1%N, Batch, StandBy)].
Proof. rewrite !ex_s_eq. vm_compute. reflexivity. Qed.
Example ex_block_opens :            (* start time 150 <= 160 *)
  fst (step ex_s (OBlock 160 [])) = BlockOk
  /\ map a_status (st_auctions (snd (step ex_s (OBlock 160 [])))) = [Started; Started].
Proof. rewrite !ex_s_eq. vm_compute. split; reflexivity. Qed.
Example ex_block_too_early :        (* 120 < 150: nothing happens *)
  map a_status (st_auctions (snd (step ex_s (OBlock 120 [])))) = [Started; StandBy].
Proof. rewrite !ex_s_eq. vm_compute. reflexivity. Qed.
Example ex_block_closes_fixed :     (* end time 200 <= 250, no vesting schedule: Finished *)
  map a_status (st_auctions (snd (step ex_s (OBlock 250 [])))) = [Finished; Started].
Proof. rewrite !ex_s_eq. vm_compute. reflexivity. Qed.
Example ex_cancel :
  fst (step ex_s (OTx (MCancel (AGood false 1) 1))) = Accepted
  /\ map a_status (st_auctions (snd (step ex_s (OTx (MCancel (AGood false 1) 1))))) = [Started; Cancelled].
Proof. rewrite !ex_s_eq. vm_compute. split; reflexivity. Qed.
Example ex_cancel_started_rejected :
  fst (step ex_s (OTx (MCancel (AGood false 0) 0))) = Rejected E_STATUS.
Proof. rewrite !ex_s_eq. vm_compute. reflexivity. Qed.
Example ex_bid_on_standby_rejected :
  fst (step ex_s (OTx (MPlaceBid (AGood false 2) 1 2 (Some P) (coin 2 50)))) = Rejected E_STATUS.
Proof. rewrite !ex_s_eq. vm_compute. reflexivity. Qed.
Example ex_creation_standby :
  fst (step ex_s (OTx (MCreateFixed (AGood false 0) (Some P) (coin 1 10) (Some 2%N) [] 500 600))) = Accepted
  /\ map (fun a => (a_id a, a_status a))
         (st_auctions (snd (step ex_s (OTx (MCreateFixed (AGood false 0) (Some P) (coin 1 10) (Some 2%N) [] 500 600)))))
     = [(0%N, Started); (1%N, StandBy); (2%N, StandBy)].
Proof. rewrite !ex_s_eq. vm_compute. split; reflexivity. Qed.

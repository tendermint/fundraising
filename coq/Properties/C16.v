(* C16 (first sentence): what the module publishes says what happened: the matched flags, the matched
   length and the matched price of a batch auction are those of the settlement that was computed; the flag
   of a fixed price bid says whether it bought anything; the released flag of a vesting instalment says it
   was paid; the queries return exactly the stored records.
   Proofs: Proofs/PublishFacts.v, PublishStable.v (fixed price bids), PublishInv.v (J9), VestingInv.v (released
   flags). *)
From Coq Require Import ZArith NArith List Bool Permutation.
From FR Require Import Dec Types Match Step Genesis Model Spec.
From FR.Proofs Require Import FrameFacts BlockFacts BlockWalk MatchSweep MatchDemand MatchBatch MatchWf VestingFacts VestingInv
     PublishFacts PublishStable InvDefs PublishInv.
From FR.Proofs Require InvStatic InvAll EqbFacts GenesisSort LedgerSettle.
Import ListNotations.
Open Scope Z_scope.

(* flag_with m b = b with b_matched := (b_id b is in m) *)
Theorem C16_set_flags_bids : forall s id m,
  bids_of (set_flags s id m) id = map (flag_with m) (bids_of s id)
  /\ (forall j, j <> id -> bids_of (set_flags s id m) j = bids_of s j)
  /\ st_mlen (set_flags s id m) id = Z.of_nat (length m)
  /\ (forall j, j <> id -> st_mlen (set_flags s id m) j = st_mlen s j).
Proof.
  intros s id m. split; [apply set_flags_bids_of|]. split; [intros j; apply set_flags_bids_other|].
  split; [apply set_flags_mlen|intros j; apply set_flags_mlen_other].
Qed.
Print Assumptions C16_set_flags_bids.

Theorem C16_set_flags_flag : forall s id m b,
  In b (bids_of (set_flags s id m) id) -> (b_matched b = true <-> In (b_id b) m).
Proof.
  intros s id m b. rewrite set_flags_bids_of. revert b. apply in_flagged. intros b0 _. exact (flag_with_matched m b0).
Qed.
Print Assumptions C16_set_flags_flag.

(* mlen_inv (J9) holds for the auction afterwards *)
Theorem C16_set_flags_count : forall s id m,
  NoDup m -> incl m (map b_id (bids_of s id)) -> NoDup (map b_id (bids_of s id)) ->
  count_matched (st_bids (set_flags s id m)) id = Z.of_nat (length m)
  /\ st_mlen (set_flags s id m) id = count_matched (st_bids (set_flags s id m)) id.
Proof. exact set_flags_count. Qed.
Print Assumptions C16_set_flags_count.

(* what the matching computes (CloseBatchAuction publishes exactly this: next theorem) *)
Theorem C16_batch_flag_facts : forall a bs ids order al mi,
  book_wf bs al -> valid_order bs ids = Some order -> 0 <= a_sell_amt a ->
  calc_batch a bs order al = Some mi ->
  mi_price mi = spec_price bs al (a_sell_amt a) /\
  mi_matched mi = match clearing_spec bs al (a_sell_amt a) with
                  | Some p => matched_ids (batch_asg order al p) | None => [] end /\
  NoDup (mi_matched mi) /\ incl (mi_matched mi) (map b_id bs) /\ NoDup (map b_id bs) /\
  (forall p, clearing_spec bs al (a_sell_amt a) = Some p -> forall b, In b bs ->
     (In (b_id b) (mi_matched mi) <-> exists m, In (b, m) (batch_asg order al p) /\ 0 < m)) /\
  (forall b, In b bs -> In (b_id b) (mi_matched mi) -> mi_price mi <= b_price b) /\
  (forall u, 0 < mi_alloc mi u <-> exists b, In b bs /\ b_bidder b = u /\ In (b_id b) (mi_matched mi)) /\
  (mi_price mi = 0 <-> mi_matched mi = []) /\
  (mi_matched mi = [] <-> forall b, In b bs -> ~ In (b_id b) (mi_matched mi)).
Proof. exact batch_flag_facts. Qed.
Print Assumptions C16_batch_flag_facts.

(* CloseBatchAuction publishes what the matching computes, in the settle branch and in the extend branch alike
   (spec_price = the clearing price of Spec.clearing_spec, 0 if there is none;
    batch_asg order al p = MatchSweep.assign over the bids priced at or above p, in sweep order) *)
Theorem C16_close_batch_publishes : forall s orc a s',
  find_auction s (a_id a) = Some a ->
  book_wf (bids_of s (a_id a)) (allowed_of s (a_id a)) -> 0 <= a_sell_amt a ->
  close_batch s orc a = Ok s' ->
  let id := a_id a in
  let bs := bids_of s id in
  let al := allowed_of s id in
  exists order mi a',
    valid_order bs (oracle_ids orc id) = Some order /\ calc_batch a bs order al = Some mi /\
    find_auction s' id = Some a' /\
    a_matched_price a' = spec_price bs al (a_sell_amt a) /\ a_matched_price a' = mi_price mi /\
    bids_of s' id = map (flag_with (mi_matched mi)) bs /\
    (forall j, j <> id -> bids_of s' j = bids_of s j) /\
    (forall b, In b (bids_of s' id) -> (b_matched b = true <-> In (b_id b) (mi_matched mi))) /\
    st_mlen s' id = Z.of_nat (length (mi_matched mi)) /\
    st_mlen s' id = count_matched (st_bids s') id /\
    (forall p, clearing_spec bs al (a_sell_amt a) = Some p -> forall b, In b (bids_of s' id) ->
       (b_matched b = true <->
        exists b0 m, In (b0, m) (batch_asg order al p) /\ 0 < m /\ b = flag_with (mi_matched mi) b0)) /\
    (forall b, In b (bids_of s' id) -> b_matched b = true -> a_matched_price a' <= b_price b) /\
    (forall u, 0 < mi_alloc mi u <-> exists b, In b (bids_of s' id) /\ b_bidder b = u /\ b_matched b = true) /\
    (a_matched_price a' = 0 <-> forall b, In b (bids_of s' id) -> b_matched b = false).
Proof.
  intros s orc a s' F WF Hs H id bs al.
  destruct (close_batch_state s orc a s' F H) as (order & mi & HV & HC & F' & HP & HB & HM).
  fold id bs al in HV, HC, F'.
  assert (HBO : bids_of s' id = map (flag_with (mi_matched mi)) bs).
  { unfold bids_of at 1. rewrite HB. apply set_flags_bids_of. }
  destruct (batch_flag_facts a bs _ order al mi WF HV Hs HC) as (B1 & _ & NDm & Hincl & NDbs & _).
  pose proof (flagged_facts a bs _ order al mi WF HV Hs HC) as G.
  pose proof (flagged_asg a bs _ order al mi WF HV Hs HC) as Gasg. rewrite <- HBO in G, Gasg.
  exists order, mi, (closed_record s a mi).
  split; [exact HV|]. split; [exact HC|]. split; [exact F'|]. split; [rewrite HP; exact B1|]. split; [exact HP|].
  split; [exact HBO|]. split.
  { intros j Hj. unfold bids_of at 1. rewrite HB. apply set_flags_bids_other. exact Hj. }
  rewrite HP. split; [exact (fl_matched _ _ G)|]. split; [rewrite HM; apply set_flags_mlen|].
  split; [rewrite HM, HB; apply set_flags_count; assumption|]. split; [exact Gasg|].
  split; [exact (fl_price _ _ G)|]. split; [exact (fl_alloc _ _ G)|exact (fl_none _ _ G)].
Qed.
Print Assumptions C16_close_batch_publishes.

(* J9 (InvDefs.mlen_inv): the recorded matched length of a batch auction is the number of its flagged bids; kept
   by every operation other than GENESIS (for which see C15_Inv_genesis).  Assumed of the rest of the invariant: J1 (as ids_ok), from J3 that bids refer to
   existing auctions (bids_ref) and have unique keys, and from J2-J5 the book hypotheses of the matching theorems
   for every started batch auction (books_ok); all of them follow from InvDefs.Inv (second theorem). *)
Theorem C16_mlen_inv_step : forall s o,
  ids_ok s -> bids_ref s -> bid_keys_unique s -> books_ok s -> mlen_inv s -> o <> OGenesis ->
  mlen_inv (snd (step s o)).
Proof. intros s o OK BR U _. exact (mlen_inv_step_alone s o OK BR U). Qed.
Print Assumptions C16_mlen_inv_step.

Theorem C16_mlen_inv_step_inv : forall s o, Inv s -> o <> OGenesis -> mlen_inv (snd (step s o)).
Proof. intros s o I. apply InvStatic.mlen_inv_step, InvAll.Inv_InvS, I. Qed.
Print Assumptions C16_mlen_inv_step_inv.

(* book_ok s a: the book hypotheses for a, if it is a started batch auction *)
Theorem C16_mlen_inv_process : forall t orc s a s',
  find_auction s (a_id a) = Some a -> book_ok s a -> mlen_inv s -> process t orc s a = Ok s' -> mlen_inv s'.
Proof. intros t orc s a s' F _. exact (mlen_inv_process t orc s a s' F). Qed.
Print Assumptions C16_mlen_inv_process.

Theorem C16_mlen_inv_process_all : forall t orc l s s',
  NoDup (map a_id l) -> (forall a, In a l -> find_auction s (a_id a) = Some a /\ book_ok s a) ->
  mlen_inv s -> process_all t orc s l = Ok s' -> mlen_inv s'.
Proof. intros t orc l s s' ND Hl. apply mlen_inv_process_all; [exact ND|intros a Ha; apply (Hl a Ha)]. Qed.
Print Assumptions C16_mlen_inv_process_all.

(* fixed price: the stored flag says whether the bid bought anything (the FixedPrice clause of
   InvDefs.bid_wf for the new bid); batch bids are stored unflagged *)
Theorem C16_place_bid_flag : forall s u id bt price d amt s',
  place_bid s u id bt price d amt = Ok s' ->
  exists a nb, find_auction s id = Some a /\ a_status a = Started /\ st_bids s' = st_bids s ++ [nb] /\
    b_auction nb = id /\ b_id nb = (st_bseq s id + 1)%N /\ b_bidder nb = u /\ b_type nb = bt /\
    b_price nb = price /\ b_denom nb = d /\ b_amt nb = amt /\
    match bt with
    | BFixed => a_type a = FixedPrice /\ b_matched nb = (0 <? sell_amount (a_pay_denom a) nb)
                /\ (d = a_pay_denom a \/ d = a_sell_denom a) /\ price = a_start_price a
    | BWorth => a_type a = Batch /\ b_matched nb = false /\ d = a_pay_denom a /\ a_min_price a <= price
    | BMany => a_type a = Batch /\ b_matched nb = false /\ d = a_sell_denom a /\ a_min_price a <= price
    end.
Proof. exact place_bid_flag. Qed.
Print Assumptions C16_place_bid_flag.

Theorem C16_close_fixed_keeps_flags : forall s a s',
  close_fixed s a = Ok s' -> st_bids s' = st_bids s /\ st_mlen s' = st_mlen s.
Proof.
  intros s a s'. rewrite LedgerSettle.close_fixed_gen. intros H. apply LedgerSettle.settle_gen_iff in H.
  destruct H as [_ ->]. split; reflexivity.
Qed.
Print Assumptions C16_close_fixed_keeps_flags.

(* ... and nothing changes the bids of a fixed price auction later: every operation other than GENESIS (for which
   see C15) leaves them alone or appends one bid that satisfies the FixedPrice clause of bid_wf (type, denomination,
   price, flag) *)
Theorem C16_fixed_bids_stable : forall s o id a,
  ids_ok s -> o <> OGenesis -> find_auction s id = Some a -> a_type a = FixedPrice ->
  bids_of (snd (step s o)) id = bids_of s id
  \/ exists nb, bids_of (snd (step s o)) id = bids_of s id ++ [nb] /\ fixed_bid_ok a nb.
Proof. exact fixed_bids_stable. Qed.
Print Assumptions C16_fixed_bids_stable.

(* the released flag of an instalment says it was paid (the statement of C09_released_iff_paid) *)
Theorem C16_released_iff_paid : forall s a t s',
  NoDup (map vkey (st_vqs s)) -> release_loop s a t (vqs_of s (a_id a)) = Ok s' ->
  let vs := vqs_of s (a_id a) in
  let flipped := filter (fun v => negb (v_released v) && v_released (release_vq (a_id a) t v)) vs in
  vqs_of s' (a_id a) = map (release_vq (a_id a) t) vs
  /\ (forall v, In v vs -> v_released (release_vq (a_id a) t v) = v_released v || (v_time v <=? t))
  /\ st_xfers s' = st_xfers s ++ map (xfer_of a) (filter (fun v => negb (v_amt v =? 0)) flipped).
Proof. exact released_iff_paid. Qed.
Print Assumptions C16_released_iff_paid.

Theorem C16_query_get_bid : forall s a i,
  run_query s (QGetBid a i) = match find_bid s a i with Some b => RBids [b] | None => RNotFound end
  /\ (forall b, find_bid s a i = Some b -> In b (st_bids s) /\ b_auction b = a /\ b_id b = i)
  /\ (find_bid s a i = None -> forall b, In b (st_bids s) -> ~ (b_auction b = a /\ b_id b = i)).
Proof.
  intros s a i. split; [reflexivity|]. split; [apply FrameFacts.find_bid_some|].
  intros HN b Hb [Ha Hi]. unfold find_bid in HN. pose proof (find_none _ _ HN b Hb) as Hc. cbn beta in Hc.
  rewrite Ha, Hi, !N.eqb_refl in Hc. discriminate Hc.
Qed.
Print Assumptions C16_query_get_bid.

Theorem C16_query_list_bid : forall s a u m,
  exists l, run_query s (QListBid a u m) = RBids l /\
    l = filter (fun b => opt_match N.eqb u (b_bidder b) && opt_match Bool.eqb m (b_matched b)) (bids_of s a) /\
    (forall b, In b l <-> In b (st_bids s) /\ b_auction b = a
                          /\ (forall x, u = Some x -> b_bidder b = x) /\ (forall x, m = Some x -> b_matched b = x)).
Proof.
  intros s a u m. eexists. split; [reflexivity|]. split; [reflexivity|]. intros b.
  rewrite filter_In, andb_true_iff, (opt_match_spec _ _ _ N.eqb_eq), (opt_match_spec _ _ _ Bool.eqb_true_iff).
  unfold bids_of. rewrite filter_In, N.eqb_eq.
  tauto.
Qed.
Print Assumptions C16_query_list_bid.

Theorem C16_query_list_allowed : forall s a,
  exists l, run_query s (QListAllowed a) = RAllowed l /\ Permutation l (allowed_of s a) /\
    (forall x, In x l <-> In x (st_allowed s) /\ al_auction x = a).
Proof.
  intros s a. eexists. split; [reflexivity|]. split; [apply GenesisSort.sort_by_perm|]. intros x.
  rewrite GenesisSort.sort_by_in. unfold allowed_of. rewrite filter_In, N.eqb_eq. reflexivity.
Qed.
Print Assumptions C16_query_list_allowed.

Theorem C16_query_list_vesting : forall s a,
  run_query s (QListVesting a) = RVqs (vqs_of s a) /\
  (forall v, In v (vqs_of s a) <-> In v (st_vqs s) /\ v_auction v = a).
Proof. intros s a. split; [reflexivity|]. intros v. unfold vqs_of. rewrite filter_In, N.eqb_eq. reflexivity. Qed.
Print Assumptions C16_query_list_vesting.

Theorem C16_query_list_auction : forall s st ty,
  exists l, run_query s (QListAuction st ty) = RAuctions l /\
    l = filter (fun a => opt_match status_eqb st (a_status a) && opt_match atype_eqb ty (a_type a)) (st_auctions s) /\
    (forall a, In a l <-> In a (st_auctions s) /\ (forall x, st = Some x -> a_status a = x)
                          /\ (forall x, ty = Some x -> a_type a = x)).
Proof.
  intros s st ty. eexists. split; [reflexivity|]. split; [reflexivity|]. intros a.
  rewrite filter_In, andb_true_iff, (opt_match_spec _ _ _ EqbFacts.status_eqb_eq), (opt_match_spec _ _ _ EqbFacts.atype_eqb_eq).
  tauto.
Qed.
Print Assumptions C16_query_list_auction.

Theorem C16_query_get_auction : forall s a,
  run_query s (QGetAuction a) = match find_auction s a with Some x => RAuctions [x] | None => RNotFound end
  /\ (forall x, find_auction s a = Some x -> In x (st_auctions s) /\ a_id x = a).
Proof. intros s a. split; [reflexivity|apply find_auction_some]. Qed.
Print Assumptions C16_query_get_auction.

Theorem C16_query_get_allowed : forall s a u,
  run_query s (QGetAllowed a u) = match find_allowed s a u with Some x => RAllowed [x] | None => RNotFound end
  /\ (forall x, find_allowed s a u = Some x -> In x (st_allowed s) /\ al_auction x = a /\ al_bidder x = u).
Proof.
  intros s a u. split; [reflexivity|]. unfold find_allowed. intros x H. apply find_some in H. destruct H as [H1 H2].
  apply andb_true_iff in H2. rewrite !N.eqb_eq in H2. tauto.
Qed.
Print Assumptions C16_query_get_allowed.

(* example: a batch auction (supply 100, min price 1.0); bids 60 @ 2.0 (bidder 5), 60 @ 1.0 and
   30 @ 1.5 (bidder 6); demand 60 @ 2.0, 90 @ 1.5, 150 @ 1.0: clears at 1.5, bids 1 and 3 matched *)
Definition ex_init : state :=
  {| st_params := {| p_cfee := []; p_bfee := []; p_period := 1 |};
     st_auctions := []; st_bids := []; st_allowed := []; st_vqs := [];
     st_aseq := 0; st_bseq := fun _ => 0%N; st_mlen := fun _ => 0;
     st_bal := fun a _ => match a with User _ => 1000000 | _ => 0 end;
     st_now := 100; st_listeners := []; st_switch := true; st_xfers := []; st_trace := [] |}.
Definition coin (d : N) (a : Z) : mcoin := {| mc_denom := Some d; mc_amt := Some a |}.
Definition ex_ops : list op :=
  [ OTx (MCreateBatch (AGood false 0) (Some P) (Some P) (coin 1 100) (Some 2%N) [] 0 (Some (P / 10)) 50 200);
    OTx (MAddAllowed 0 0 (AGood false 5) (Some 100)); OTx (MAddAllowed 0 0 (AGood false 6) (Some 100));
    OTx (MPlaceBid (AGood false 5) 0 3 (Some (2 * P)) (coin 1 60));
    OTx (MPlaceBid (AGood false 6) 0 3 (Some P) (coin 1 60));
    OTx (MPlaceBid (AGood false 6) 0 3 (Some (P + P / 2)) (coin 1 30)) ].
Definition ex_s : state := run ex_init ex_ops.
(* evaluated once (ExampleRuns.v) *)
Definition ex_s_nf : state := Eval vm_compute in ex_s.
Lemma ex_s_eq : ex_s = ex_s_nf.
Proof. vm_compute. reflexivity. Qed.
Definition ex_auction : auction := match find_auction ex_s 0 with Some a => a | None => new_auction 0 Batch 0 false 0 0 0 0 [] 0 0 Started 0 0 0 0 end.
Definition ex_auction_nf : auction := Eval vm_compute in ex_auction.
Lemma ex_auction_eq : ex_auction = ex_auction_nf.
Proof. unfold ex_auction. rewrite ex_s_eq. vm_compute. reflexivity. Qed.
Definition ex_orc : list (N * list N) := [(0%N, [1; 3; 2]%N)].

Example ex_hyps :
  find_auction ex_s (a_id ex_auction) = Some ex_auction
  /\ book_wfb (bids_of ex_s 0) (allowed_of ex_s 0) = true
  /\ (0 <=? a_sell_amt ex_auction) = true
  /\ map b_matched (bids_of ex_s 0) = [false; false; false].
Proof. rewrite !ex_auction_eq, !ex_s_eq. vm_compute. repeat split. Qed.

Definition ex_s' : state := snd (step ex_s (OBlock 200 ex_orc)).
(* ex_closing: the closing step, outcome and state *)
Definition ex_closing_nf : outcome * state := Eval vm_compute in step ex_s_nf (OBlock 200 ex_orc).
Lemma ex_closing_eq : step ex_s (OBlock 200 ex_orc) = ex_closing_nf.
Proof. rewrite ex_s_eq. vm_compute. reflexivity. Qed.
Definition ex_s'_nf : state := Eval vm_compute in snd ex_closing_nf.
Lemma ex_s'_eq : ex_s' = ex_s'_nf.
Proof. unfold ex_s'. rewrite ex_closing_eq. reflexivity. Qed.
Example ex_closed :
  fst (step ex_s (OBlock 200 ex_orc)) = BlockOk
  /\ map (fun b => (b_id b, b_matched b)) (bids_of ex_s' 0) = [(1%N, true); (2%N, false); (3%N, true)]
  /\ option_map a_matched_price (find_auction ex_s' 0) = Some (P + P / 2)
  /\ clearing_spec (bids_of ex_s 0) (allowed_of ex_s 0) 100 = Some (P + P / 2)
  /\ st_mlen ex_s' 0%N = 2 /\ count_matched (st_bids ex_s') 0 = 2.
Proof. rewrite !ex_s'_eq, !ex_closing_eq, !ex_s_eq. vm_compute. repeat split. Qed.

Example ex_queries :
  run_query ex_s' (QListBid 0 None (Some true)) = RBids (filter b_matched (bids_of ex_s' 0))
  /\ run_query ex_s' (QGetBid 0 7) = RNotFound.
Proof. rewrite !ex_s'_eq. vm_compute. repeat split. Qed.

(* fixed price 2.0: a bid of 1 paying coin buys nothing and is stored unflagged, one of 10 buys 5 *)
Definition ex_fixed : state :=
  run ex_init [ OTx (MCreateFixed (AGood false 0) (Some (2 * P)) (coin 1 100) (Some 2%N) [] 50 200);
                OTx (MAddAllowed 0 0 (AGood false 5) (Some 100));
                OTx (MPlaceBid (AGood false 5) 0 1 (Some (2 * P)) (coin 2 1));
                OTx (MPlaceBid (AGood false 5) 0 1 (Some (2 * P)) (coin 2 10)) ].
Example ex_fixed_flags :
  map (fun b => (b_id b, sell_amount 2 b, b_matched b)) (st_bids ex_fixed) = [(1%N, 0, false); (2%N, 5, true)].
Proof. vm_compute. reflexivity. Qed.

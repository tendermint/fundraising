(* C13, checker link: the executable extended-rounds monitor Checkers.c13_ok can never fire on a transition of the model
   from a state satisfying the global invariant.  Proofs: Proofs/Chk13.v (with BlockFacts.v, LifeTheorems.v). *)
From Coq Require Import ZArith NArith List.
From FR Require Import Dec Types Genesis Model Checkers.
From FR.Proofs Require Import InvDefs InvAll ExcessExamples Chk13.
Import ListNotations.
Open Scope Z_scope.

Theorem C13_checker : forall s o, Inv s -> oracle_ok s o -> c13_ok (model_trans s o) = true.
Proof. intros s o I _. exact (c13_ok_model s o I). Qed.
Print Assumptions C13_checker.

(* the checker the driver evaluates for C13: c13_ok and c13_count (the count of matched bids that the anti-sniping
   rule compares with is recorded by blocks only; no message or allow-list call alters it) *)
Theorem C13_all_checker : forall s o, Inv s -> c13_all (model_trans s o) = true.
Proof. exact Chk13.c13_all_model. Qed.
Print Assumptions C13_all_checker.

(* the oracle hypothesis is not needed *)
Theorem C13_checker_any_oracle : forall s o, Inv s -> c13_ok (model_trans s o) = true.
Proof. exact c13_ok_model. Qed.
Print Assumptions C13_checker_any_oracle.

(* along every history from the empty module *)
Theorem C13_checker_reachable : forall bal now sw p ops o,
  (forall x d, 0 <= bal x d) -> coins_ok (p_cfee p) None = true -> coins_ok (p_bfee p) None = true ->
  c13_ok (model_trans (run (init_state bal now sw p) ops) o) = true.
Proof. intros bal now sw p ops o Hb H1 H2. apply c13_ok_model, Inv_reachable; assumption. Qed.
Print Assumptions C13_checker_reachable.

(* non-vacuity: a batch auction with two possible extensions and one bid.  Its first closing block extends it (no
   previous round to compare with), the second one settles it (1 matched bid after 1 matched bid: no drop). *)
Definition c13_create : op :=
  OTx (MCreateBatch (AGood false 0) (Some P) (Some P) (c01_coin 1 1000) (Some 2%N) [] 2 (Some (P / 2)) 50 200).
Definition c13_allow : op := OTx (MAddAllowed 0 0 (AGood false 2) (Some 100)).
Definition c13_bid : op := OTx (MPlaceBid (AGood false 2) 0 2 (Some P) (c01_coin 2 50)).
Example C13_checker_ex :
  let s := run c01_init [c13_create; c13_allow; c13_bid] in
  let t1 := model_trans s (OBlock 250 [(0%N, [1%N])]) in
  let t2 := model_trans (t_post t1) (OBlock (250 + day_ns) [(0%N, [1%N])]) in
  t_class t1 = KBlockOk /\ map a_ends (st_auctions (t_post t1)) = [[200; 200 + day_ns]]
  /\ map a_status (st_auctions (t_post t1)) = [Started] /\ c13_ok t1 = true
  /\ t_class t2 = KBlockOk /\ map a_ends (st_auctions (t_post t2)) = [[200; 200 + day_ns]]
  /\ map a_status (st_auctions (t_post t2)) = [Finished] /\ c13_ok t2 = true.
Proof. vm_compute. repeat split; reflexivity. Qed.

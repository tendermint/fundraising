(* C19, identifiers, including the GENESIS operation: in EVERY state reachable from the empty module by any
   sequence of operations (OGenesis included, whatever the block oracles are), the auction ids are exactly
   0 .. n-1 in store order and per auction the bid ids are exactly 1 .. k in store order.
   Proof: Proofs/InvStaticGenesis.v, on the import phases of Proofs/GenesisImport.v. *)
From Coq Require Import ZArith NArith List.
From FR Require Import Dec Types Genesis Model Spec.
From FR.Proofs Require Import InvDefs InvStatic InvStaticGenesis InvStaticExamples ExampleRuns.
Import ListNotations.
Open Scope Z_scope.

Theorem C19_ids_all : forall bal now sw p ops,
  coins_ok (p_cfee p) None = true -> coins_ok (p_bfee p) None = true ->
  let s := run (init_state bal now sw p) ops in
  map a_id (st_auctions s) = ids_upto (st_aseq s)
  /\ forall id, map b_id (bids_of s id) = map N.succ (ids_upto (st_bseq s id)).
Proof.
  intros bal now sw p ops H1 H2. pose proof (InvS_reachable_all bal now sw p ops H1 H2) as I.
  split; [exact (is_ids _ I)|exact (proj2 (is_bids _ I))].
Qed.
Print Assumptions C19_ids_all.

Theorem C19_genesis_step : forall s, InvS s -> InvS (snd (step s OGenesis)).
Proof. exact InvS_genesis. Qed.
Print Assumptions C19_genesis_step.

(* example: the history of C19_ids followed by GENESIS and one more bid *)
Example ex_genesis_accepted : fst (step c19_s OGenesis) = GenOk true.
Proof. rewrite c19_s_eq. vm_compute. reflexivity. Qed.
Example ex_ids_after_genesis :
  let s := run c19_s [OGenesis; OTx (MPlaceBid (AGood false 2) 1 3 (Some (3 * P)) (c19_coin 1 5))] in
  map a_id (st_auctions s) = [0; 1]%N /\ st_aseq s = 2%N
  /\ map b_id (bids_of s 0) = [1; 2]%N /\ map b_id (bids_of s 1) = [1; 2]%N
  /\ map (fun b => (b_auction b, b_id b)) (st_bids s) = [(0, 1); (0, 2); (1, 1); (1, 2)]%N.
Proof. rewrite c19_s_eq. vm_compute. repeat split; reflexivity. Qed.

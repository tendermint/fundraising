(* C14  Replaying the same history gives identical state, transfers and events.
   Logic part: (1) the model's transition is a function of state and operation, the sweep order it takes
   as oracle is validated, and the five places where the Go code ranges over a map compute
   order-independent results; (2) every loop of the census of such loops, regenerated and classified from the
   source on every run, is of one of the two order-independent shapes, calls nothing with an effect and has no
   early exit (MapLoopsSpec.loop_safe); likewise the census of the uses of the wall clock (C14_no_wall_clock).  The runtime part (real map iteration, processes) is exercised by
   the repeated-execution check of bin/check C14 and cannot be exhibited by the model. *)
From Coq Require Import ZArith NArith List Permutation Sorted.
From FR Require Import Dec Types Match Model MapLoopsSpec.
From FR.Proofs Require Import Determinism InvDefs LiveFacts.
From FR.Proofs Require MatchBase.
From FR.Generated Require Import MapLoops.
Import ListNotations.

Theorem C14_census : forallb loop_safe map_loops = true.
Proof. vm_compute. reflexivity. Qed.
Print Assumptions C14_census.

(* no message handler, block handler, validation or query reads the wall clock, the environment or a random source
   (census regenerated from the source on every run; the one read found feeds a telemetry timer) *)
Theorem C14_no_wall_clock : forallb clock_use_safe clock_uses = true.
Proof. vm_compute. reflexivity. Qed.
Print Assumptions C14_no_wall_clock.

(* shape collect_sorted of the census: the keys are collected, then sorted.  Here the bidders, over AllocationMap in
   AllocateSellingCoin and over RefundMap in RefundPayingCoin (Match.bidders_of is that sorted list) *)
Theorem C14_collect_then_sort : forall bs bs', Permutation bs bs' -> bidders_of bs = bidders_of bs'.
Proof. exact bidders_of_perm. Qed.
Print Assumptions C14_collect_then_sort.

(* shape keyed of the census: one write per key into another map, the keys being distinct.  The two loops of
   CalculateBatchAllocation (over reservedAmtByBidder and over MatchResultByBidder) *)
Theorem C14_keyed_writes : forall (V : Type) (l l' : list (N * V)) f0,
  NoDup (map fst l) -> Permutation l l' -> forall k, write_all f0 l k = write_all f0 l' k.
Proof. exact @keyed_writes_perm. Qed.
Print Assumptions C14_keyed_writes.

(* collect_sorted again: the price levels of types.BidsByPrice, sorted from the highest down *)
Theorem C14_sorted_prices_unique : forall l l' : list Z,
  Permutation l l' -> StronglySorted desc l -> StronglySorted desc l' -> l = l'.
Proof. exact sorted_desc_unique. Qed.
Print Assumptions C14_sorted_prices_unique.

(* the result of a batch matching does not depend on the order in which the store hands over the recorded bids:
   same clearing price, matched bids, total, ordered bidder list, allocations and refunds *)
Theorem C14_matching_store_order : forall a bs bs' order al,
  Permutation bs bs' ->
  match calc_batch a bs order al, calc_batch a bs' order al with
  | Some m, Some m' =>
      mi_price m = mi_price m' /\ mi_matched m = mi_matched m' /\ mi_total m = mi_total m' /\
      mi_bidders m = mi_bidders m' /\ (forall u, mi_alloc m u = mi_alloc m' u) /\ (forall u, mi_refund m u = mi_refund m' u)
  | None, None => True
  | _, _ => False
  end.
Proof.
  intros a bs bs' order al H. unfold calc_batch.
  destruct (search _ _ _ _ _) as [best|]; [|exact I].
  cbn [mi_price mi_matched mi_total mi_bidders mi_alloc mi_refund].
  repeat split; try reflexivity.
  - apply bidders_of_perm, H.
  - intros u. rewrite (MatchBase.reserved_of_perm (a_pay_denom a) bs bs' u H). reflexivity.
Qed.
Print Assumptions C14_matching_store_order.

(* the order in which a matching sweeps the bids is determined by the bids: by price, highest first, equal prices by
   bid id.  Two valid sweep orders of the same bids are equal *)
Theorem C14_sweep_order_unique : forall bs ids ids' o o',
  valid_order bs ids = Some o -> valid_order bs ids' = Some o' -> o = o' /\ ids = ids'.
Proof. exact valid_order_unique. Qed.
Print Assumptions C14_sweep_order_unique.

(* hence the oracle of a block (the sweep orders the implementation reports) carries no freedom: from a state
   satisfying the invariant every valid oracle gives the same transition, with or without an injected fault, namely
   the one computed from the state itself *)
Theorem C14_block_oracle_irrelevant : forall s t orc orc',
  Inv s -> oracle_ok s (OBlock t orc) -> oracle_ok s (OBlock t orc') ->
  step s (OBlock t orc) = step s (OBlock t orc')
  /\ forall k, step s (OFaultBlock t orc k) = step s (OFaultBlock t orc' k).
Proof. exact block_oracle_irrelevant. Qed.
Print Assumptions C14_block_oracle_irrelevant.

Theorem C14_block_is_a_function_of_the_state : forall s t orc,
  Inv s -> oracle_ok s (OBlock t orc) -> step s (OBlock t orc) = step s (OBlock t (LiveFacts.natural_orc s)).
Proof.
  intros s t orc I H. apply (block_oracle_irrelevant s t orc (natural_orc s) I H (natural_oracle_ok s t I)).
Qed.
Print Assumptions C14_block_is_a_function_of_the_state.

(* the model's step is a function: equal inputs, equal outputs (state, ordered transfers, ordered hook trace) *)
Theorem C14_step_functional : forall s o s1 s2 r1 r2, step s o = (r1, s1) -> step s o = (r2, s2) -> r1 = r2 /\ s1 = s2.
Proof. intros s o s1 s2 r1 r2 H1 H2. rewrite H1 in H2. inversion H2. split; reflexivity. Qed.
Print Assumptions C14_step_functional.

Example C14_example : bidders_of [ {| b_auction := 0; b_id := 1; b_bidder := 3; b_type := BMany; b_price := 1; b_denom := 0; b_amt := 1; b_matched := false |};
                                   {| b_auction := 0; b_id := 2; b_bidder := 1; b_type := BMany; b_price := 1; b_denom := 0; b_amt := 1; b_matched := false |};
                                   {| b_auction := 0; b_id := 3; b_bidder := 3; b_type := BMany; b_price := 1; b_denom := 0; b_amt := 1; b_matched := false |} ]%N%Z
                         = [1; 3]%N.
Proof. vm_compute. reflexivity. Qed.

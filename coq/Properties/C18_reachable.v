(* C18 over reachable states: the well-formedness WF that C18_exact assumes follows from the global invariant,
   which holds in every state reachable from the empty module by any history (InvAll.v). *)
From Coq Require Import ZArith List.
From FR Require Import Types Genesis Model Spec.
From FR.Proofs Require Import InvDefs InvAll FixedFacts PrecondFacts.
Import ListNotations.
Open Scope Z_scope.

Theorem C18_WF_of_invariant : forall s, Inv s -> WF s /\ bids_pos s.
Proof. intros s I. split; [apply Inv_WF, I|apply Inv_bids_pos, I]. Qed.
Print Assumptions C18_WF_of_invariant.

Theorem C18_exact_reachable : forall bal now sw p ops m,
  (forall x d, 0 <= bal x d) -> coins_ok (p_cfee p) None = true -> coins_ok (p_bfee p) None = true ->
  let s := run (init_state bal now sw p) ops in
  (fst (deliver_tx s m) = Accepted <-> precond s m = true).
Proof.
  intros bal now sw p ops m Hb H1 H2 s. apply C18_exact_proof, Inv_WF, Inv_reachable; assumption.
Qed.
Print Assumptions C18_exact_reachable.

Theorem C18_exact_inv : forall s m, Inv s -> (fst (step s (OTx m)) = Accepted <-> precond s m = true).
Proof. intros s m I. cbn [step]. apply C18_exact_proof, Inv_WF, I. Qed.
Print Assumptions C18_exact_inv.

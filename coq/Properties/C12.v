(* C12: an auction can be cancelled exactly by its auctioneer while it is in stand-by (and no listener
   vetoes); the cancellation marks it Cancelled, zeroes the remaining coin of a fixed price auction and
   returns the whole selling escrow to the auctioneer; nothing else changes. *)
From Coq Require Import ZArith NArith List Lia.
From FR Require Import Types Step Model Spec.
From FR.Proofs Require Import PrecondFacts PrecondEffects PrecondExamples.
From FR.Proofs Require EqbFacts BankFacts FrameFacts TxFacts Ledger.
Import ListNotations.
Open Scope Z_scope.

Theorem C12_cancel_iff : forall s who id,
  WF s ->
  (fst (deliver_tx s (MCancel who id)) = Accepted <->
   exists up u a, who = AGood up u /\ find_auction s id = Some a /\ u = a_auctioneer a /\
                  a_status a = StandBy /\ no_veto s H_BeforeCanceled = true).
Proof.
  intros s who id.
  intros W. rewrite (accept_cancel_iff s who id W). unfold precond, check_basic.
  destruct who as [up u|].
  - destruct (find_auction s id) as [a|] eqn:Ea.
    + split.
      * intros H. PrecondBase.b2p H. exists up, u, a. repeat split; assumption.
      * intros (up' & u' & a' & Hw & Ha & Hu & Hst & Hv).
        injection Hw as Hup Huu. injection Ha as Haa. subst a'.
        rewrite Huu, Hu, Hv, Hst, N.eqb_refl. reflexivity.
    + split; [intros H; discriminate H|].
      intros (up' & u' & a' & _ & Ha & _). discriminate Ha.
  - split; [intros H; discriminate H|].
    intros (up' & u' & a' & Hw & _). discriminate Hw.
Qed.
Print Assumptions C12_cancel_iff.

Theorem C12_effects : forall s who id a,
  WF s -> fst (deliver_tx s (MCancel who id)) = Accepted -> find_auction s id = Some a ->
  let s' := snd (deliver_tx s (MCancel who id)) in
  let bal := st_bal s (Escrow Selling id) (a_sell_denom a) in
  (* the cancelled auction *)
  (exists a', find_auction s' id = Some a' /\ a_status a' = Cancelled /\
     (a_type a = FixedPrice -> a_remaining a' = 0) /\ (a_type a = Batch -> a_remaining a' = a_remaining a) /\
     a_id a' = a_id a /\ a_type a' = a_type a /\ a_auctioneer a' = a_auctioneer a /\ a_upper a' = a_upper a /\
     a_start_price a' = a_start_price a /\ a_sell_denom a' = a_sell_denom a /\ a_sell_amt a' = a_sell_amt a /\
     a_pay_denom a' = a_pay_denom a /\ a_scheds a' = a_scheds a /\ a_start a' = a_start a /\
     a_ends a' = a_ends a /\ a_min_price a' = a_min_price a /\ a_matched_price a' = a_matched_price a /\
     a_max_round a' = a_max_round a /\ a_rate a' = a_rate a /\
     (* the list of auctions changes only at id *)
     st_auctions s' = map (fun x => if N.eqb (a_id x) id then a' else x) (st_auctions s)) /\
  (forall j, j <> id -> find_auction s' j = find_auction s j) /\
  (* nothing else in the store changes *)
  st_params s' = st_params s /\ st_bids s' = st_bids s /\ st_allowed s' = st_allowed s /\
  st_vqs s' = st_vqs s /\ st_aseq s' = st_aseq s /\ st_bseq s' = st_bseq s /\ st_mlen s' = st_mlen s /\
  st_now s' = st_now s /\ st_listeners s' = st_listeners s /\ st_switch s' = st_switch s /\
  (* the whole selling escrow goes back to the auctioneer, in one transfer (none when it is empty) *)
  st_xfers s' = st_xfers s ++
                (if bal =? 0 then []
                 else [{| x_from := Escrow Selling id; x_to := User (a_auctioneer a);
                          x_denom := a_sell_denom a; x_amt := bal |}]) /\
  st_bal s' (Escrow Selling id) (a_sell_denom a) = 0 /\
  st_bal s' (User (a_auctioneer a)) (a_sell_denom a) = st_bal s (User (a_auctioneer a)) (a_sell_denom a) + bal.
Proof.
  intros s who id a _ Hacc Ea. cbv zeta.
  destruct (accepted_cancel s who id Hacc) as (up & u & a' & _ & Ea' & _ & ->).
  rewrite Ea in Ea'. injection Ea' as <-.
  destruct (FrameFacts.find_auction_some _ _ _ Ea) as [_ Hid]. subst id.
  (* the state is TxFacts.cancel_post: the record TxFacts.cancel_of a is put, the escrow is sent; the rest reads off the term *)
  split; [|split].
  - exists (TxFacts.cancel_of a). split; [exact (TxFacts.cancel_post_find s u up _ a Ea)|].
    unfold TxFacts.cancel_post, TxFacts.cancel_of. destruct (a_type a) eqn:Ety; repeat split; try exact Ety; intros Hx; reflexivity || discriminate Hx.
  - intros j Hj. unfold TxFacts.cancel_post. rewrite FrameFacts.find_auction_put_other by (rewrite TxFacts.a_id_cancel_of; exact Hj).
    reflexivity.
  - (* the rest of the store and the transfer are read off the term; the two balances are sums *)
    repeat (split; [reflexivity|]). rewrite !TxFacts.cancel_post_bal. unfold TxFacts.cancel_xf. rewrite !Ledger.net_send_xf.
    rewrite !EqbFacts.addr_eqb_refl, !N.eqb_refl. cbn [addr_eqb andb]. unfold BankFacts.ind. Lia.lia.
Qed.
Print Assumptions C12_effects.

(* once an auction has left stand-by no cancellation is ever accepted (no hypothesis on the state) *)
Theorem C12_never_after_open : forall s id a who,
  find_auction s id = Some a -> a_status a <> StandBy ->
  exists c, fst (deliver_tx s (MCancel who id)) = Rejected c.
Proof.
  intros s id a who.
  intros Ea Hst. destruct (deliver_outcome s (MCancel who id)) as [Hacc|Hrej]; [|exact Hrej].
  exfalso. destruct (accepted_cancel s who id Hacc) as (? & ? & a' & _ & Ea' & G & _).
  rewrite Ea in Ea'. injection Ea' as <-. exact (Hst (TxFacts.cn_standby G)).
Qed.
Print Assumptions C12_never_after_open.

(* the hypotheses are satisfiable: the stand-by auction 2 of ex_state is cancelled by its auctioneer,
   the started auction 0 is not *)
Example ex_cancel_accepted :
  WF ex_state /\ fst (deliver_tx ex_state (MCancel (AGood true 7) 2)) = Accepted /\
  find_auction ex_state 2 = Some ex_standby.
Proof. split; [exact ex_state_WF|]. split; vm_compute; reflexivity. Qed.
Example ex_cancel_started :
  fst (deliver_tx ex_state (MCancel (AGood true 7) 0)) = Rejected E_STATUS.
Proof. vm_compute. reflexivity. Qed.

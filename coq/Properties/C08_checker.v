(* C08, checker link: the executable lifecycle monitor Checkers.c08_ok (and its extension c08_all = c08_ok && pending_ok)
   can never fire on a transition of the model from a state satisfying the global invariant.
   Proofs: Proofs/Chk08.v (with LifeTheorems.v, BlockFacts.v, TxFacts.v, GenesisImport.v, VestingPending.v). *)
From Coq Require Import ZArith List Bool.
From FR Require Import Types Genesis Model Checkers.
From FR.Proofs Require Import InvDefs InvAll VestingPending ExcessExamples ExampleRuns Chk08.
Import ListNotations.
Open Scope Z_scope.

Theorem C08_checker : forall s o, Inv s -> oracle_ok s o -> c08_ok (model_trans s o) = true.
Proof. intros s o I _. exact (c08_ok_model s o I). Qed.
Print Assumptions C08_checker.

(* the oracle hypothesis is not needed *)
Theorem C08_checker_any_oracle : forall s o, Inv s -> c08_ok (model_trans s o) = true.
Proof. exact c08_ok_model. Qed.
Print Assumptions C08_checker_any_oracle.

Theorem C08_all_checker : forall s o,
  Inv s -> vesting_pending s -> oracle_ok s o -> c08_all (model_trans s o) = true.
Proof. intros s o I VP _. exact (c08_all_model s o I VP). Qed.
Print Assumptions C08_all_checker.

(* along every history from the empty module *)
Theorem C08_all_checker_reachable : forall bal now sw p ops o,
  (forall x d, 0 <= bal x d) -> coins_ok (p_cfee p) None = true -> coins_ok (p_bfee p) None = true ->
  c08_all (model_trans (run (init_state bal now sw p) ops) o) = true.
Proof.
  intros bal now sw p ops o Hb H1 H2.
  apply c08_all_model; [apply Inv_reachable|apply vesting_pending_reachable]; assumption.
Qed.
Print Assumptions C08_all_checker_reachable.

(* non-vacuity: the checker evaluates to true on the closing and the releasing block of ExcessExamples.v *)
Example C08_checker_ex :
  c08_all (model_trans (run c01_init c01_hist3) c01_close) = true
  /\ c08_all (model_trans (run c01_init c01_hist4) c01_release) = true.
Proof. rewrite !c01_hist3_eq, !c01_hist4_eq. split; vm_compute; reflexivity. Qed.

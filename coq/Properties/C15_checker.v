(* C15, checker link: the executable statement Checkers.c15_ok (GENESIS is accepted, the exported genesis validates,
   the module state and every tracked balance are the same before and after) holds of every transition the model
   makes from a state satisfying the global invariant.  Proof: Proofs/Chk15.v (from GenesisImport.genesis_step and
   the uniqueness of the sorted stores). *)
From Coq Require Import ZArith List.
From FR Require Import Types Checkers.
From FR.Proofs Require Import InvDefs GenesisExamples Chk15.
Import ListNotations.
Open Scope Z_scope.

Theorem C15_checker : forall s o, Inv s -> oracle_ok s o -> c15_ok (model_trans s o) = true.
Proof. intros s o I _. exact (c15_ok_model s o I). Qed.
Print Assumptions C15_checker.

(* the hypotheses are satisfiable, and the checker is not vacuous there *)
Example C15_checker_ex_Inv : Inv g_state.
Proof. exact g_state_Inv. Qed.
Example C15_checker_ex : c15_ok (model_trans g_state OGenesis) = true /\ t_class (model_trans g_state OGenesis) = KGenOk.
Proof. rewrite g_state_eq. vm_compute. split; reflexivity. Qed.

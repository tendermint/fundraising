(* C05, checker link: the executable statement Checkers.c05_ok (at a settlement: the selling coins the bidders receive
   - summed over ALL the transfers of the block out of the auction's selling escrow - are together at most the offered
   amount, per bidder at most the allowance and at most what the bidder's bids ask for at the published price (batch),
   resp. exactly the quantities of the bidder's accepted bids (fixed price); at the acceptance of a fixed price bid:
   everything the bidder has bid for so far fits the allowance) holds of every transition the model makes from a state
   satisfying the global invariant.  Proofs: Proofs/ChkSettle.v (which transfers of a block the sums see),
   Proofs/Chk05.v. *)
From Coq Require Import ZArith NArith List.
From FR Require Import Types Model Checkers.
From FR.Proofs Require Import InvDefs InvAll ExcessExamples ExampleRuns Chk05.
Import ListNotations.
Open Scope Z_scope.

Theorem C05_checker : forall s o, Inv s -> oracle_ok s o -> c05_ok (model_trans s o) = true.
Proof. intros s o I _. exact (c05_ok_model s o I). Qed.
Print Assumptions C05_checker.

(* the oracle hypothesis is not needed *)
Theorem C05_checker_inv : forall s o, Inv s -> c05_ok (model_trans s o) = true.
Proof. exact c05_ok_model. Qed.
Print Assumptions C05_checker_inv.

(* the hypotheses are satisfiable, and the checker is not vacuous there: a block that settles a fixed price auction
   (history of ExcessExamples.v), and the acceptance of a fixed price bid *)
Example C05_checker_ex_Inv : Inv (run c01_init c01_hist3) /\ Inv (run c01_init [c01_create; c01_allow]).
Proof. split; apply Inv_reachable; try reflexivity; intros [u|r a|] d; cbn; discriminate. Qed.
Example C05_checker_ex_settles :
  map (fun p => a_id (fst p)) (settling (model_trans (run c01_init c01_hist3) c01_close)) = [0%N]
  /\ received (model_trans (run c01_init c01_hist3) c01_close) 0 1 2 = 50
  /\ c05_ok (model_trans (run c01_init c01_hist3) c01_close) = true.
Proof.
  set (tr := model_trans (run c01_init c01_hist3) c01_close).
  rewrite (c05_ok_model _ _ (proj1 C05_checker_ex_Inv) : c05_ok tr = true).
  revert tr. rewrite c01_hist3_eq. vm_compute. repeat split; reflexivity.
Qed.
Example C05_checker_ex_accepts :
  t_class (model_trans (run c01_init [c01_create; c01_allow]) c01_bid) = KOk
  /\ c05_ok (model_trans (run c01_init [c01_create; c01_allow]) c01_bid) = true.
Proof. split; [rewrite c01_hist0_eq; vm_compute; reflexivity|exact (c05_ok_model _ _ (proj2 C05_checker_ex_Inv))]. Qed.

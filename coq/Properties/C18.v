(* C18: a message is accepted exactly under its documented precondition (Spec.precond);
   a rejected message leaves the store and the balances unchanged. *)
From Coq Require Import ZArith List.
From FR Require Import Dec Types Model Spec.
From FR.Proofs Require Import PrecondFacts PrecondExamples.
Import ListNotations.
Open Scope Z_scope.

Theorem C18_exact : forall s m, WF s -> (fst (deliver_tx s m) = Accepted <-> precond s m = true).
Proof. exact C18_exact_proof. Qed.
Print Assumptions C18_exact.

Theorem C18_rejected_unchanged : forall s m c,
  fst (deliver_tx s m) = Rejected c ->
  let s' := snd (deliver_tx s m) in
  st_params s' = st_params s /\ st_auctions s' = st_auctions s /\ st_bids s' = st_bids s /\
  st_allowed s' = st_allowed s /\ st_vqs s' = st_vqs s /\ st_aseq s' = st_aseq s /\
  st_bseq s' = st_bseq s /\ st_mlen s' = st_mlen s /\ st_bal s' = st_bal s /\ st_now s' = st_now s /\
  st_listeners s' = st_listeners s /\ st_switch s' = st_switch s /\ st_xfers s' = st_xfers s.
Proof.
  intros s m c.
  unfold deliver_tx. destruct (Step.check_basic m) as [cm|].
  - destruct (Step.handle s cm) as [s1|c1 t1]; cbn [commit fst snd].
    + intros H. discriminate H.
    + intros _. repeat split; reflexivity.
  - cbn [fst snd]. intros _. repeat split; reflexivity.
Qed.
Print Assumptions C18_rejected_unchanged.

(* the hypothesis is satisfiable (PrecondExamples.ex_state_WF), and both sides of the equivalence occur *)
Example ex_WF : WF ex_state.
Proof. exact ex_state_WF. Qed.
(* fee 1 and reservation 39 in the same denomination, balance 40: accepted; reservation 40: rejected *)
Example ex_accept_fixed :
  precond ex_state (MPlaceBid (AGood false 8) 0 1 (Some (P / 2)) (coin 2 39)) = true /\
  fst (deliver_tx ex_state (MPlaceBid (AGood false 8) 0 1 (Some (P / 2)) (coin 2 39))) = Accepted.
Proof. split; vm_compute; reflexivity. Qed.
Example ex_reject_fixed :
  precond ex_state (MPlaceBid (AGood false 8) 0 1 (Some (P / 2)) (coin 2 40)) = false /\
  fst (deliver_tx ex_state (MPlaceBid (AGood false 8) 0 1 (Some (P / 2)) (coin 2 40))) = Rejected E_FUNDS.
Proof. split; vm_compute; reflexivity. Qed.
Example ex_accept_modify :
  precond ex_state (MModifyBid (AGood false 8) 1 1 (Some (2 * P)) (coin 2 10)) = true /\
  fst (deliver_tx ex_state (MModifyBid (AGood false 8) 1 1 (Some (2 * P)) (coin 2 10))) = Accepted.
Proof. split; vm_compute; reflexivity. Qed.
Example ex_accept_cancel :
  precond ex_state (MCancel (AGood true 7) 2) = true /\
  fst (deliver_tx ex_state (MCancel (AGood true 7) 2)) = Accepted.
Proof. split; vm_compute; reflexivity. Qed.

(* C10, second sentence: in a default build no transaction can touch the allow-list.
   The switch keeper.EnableAddAllowedBidder is determined by (a) the string default of the link flag,
   parsed in keeper.init, (b) what the Makefile's default targets pass, (c) any other write to the variable
   in a package of this repository that is linked into cmd/fundraisingd.  All three are regenerated from
   /repo by harness/cmd/switchscan on every run; the run-time value in a binary that links the application
   is additionally observed by the harness (every history records it) -- see bin/check C10. *)
From Coq Require Import String List.
From FR.Generated Require Import BuildSwitch.
Import ListNotations.
Open Scope string_scope.

(* strconv.ParseBool on the values that matter *)
Definition parse_bool (s : string) : option bool :=
  if existsb (String.eqb s) ["1"; "t"; "T"; "TRUE"; "true"; "True"] then Some true
  else if existsb (String.eqb s) ["0"; "f"; "F"; "FALSE"; "false"; "False"] then Some false
  else None.

(* the value of the switch after package initialisation of a default build *)
Definition switch_value : option bool :=
  if keeper_init_parses_flag then
    match foreign_writes with
    | [] => if makefile_default_targets_set_flag then None else parse_bool ldflag_default
    | _ => None          (* some other code writes the variable: not decided here, reported *)
    end
  else None.

Theorem C10_default_build_switch_off : switch_value = Some false.
Proof. vm_compute. reflexivity. Qed.
Print Assumptions C10_default_build_switch_off.

Theorem C10_default_build_facts :
  ldflag_default = "false" /\ keeper_init_parses_flag = true /\ makefile_default_targets_set_flag = false /\ foreign_writes = [].
Proof. vm_compute. repeat split; reflexivity. Qed.
Print Assumptions C10_default_build_facts.

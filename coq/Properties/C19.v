(* C19 isolation, immutable terms, ids.
   Proofs: Proofs/FrameFacts.v, TxFacts.v, BlockFacts.v, LifeTheorems.v, GenesisFacts.v.
   OGenesis is excluded by an explicit hypothesis or by the form of the operation (a target, a block, a rejection),
   except in the _all variants (under gen_ok). *)
From Coq Require Import ZArith NArith List Lia.
From FR Require Import Dec Types Step Genesis Model.
From FR Require Checkers.
From FR.Proofs Require Import FrameFacts TxFacts BlockFacts BlockWalk LifeTheorems GenesisFacts LifeExamples.
Import ListNotations.
Open Scope Z_scope.

(* a transaction / API call about auction tid changes nothing of any other auction:
   frame tid s s' = forall j <> tid, find_auction, bids_of, allowed_of, vqs_of, st_bseq, st_mlen at j
   and the three escrow balances of j in every denomination are the same in s and s' *)
Theorem C19_frame_tx : forall s o tid j,
  target s o = Some tid -> j <> tid ->
  find_auction (snd (step s o)) j = find_auction s j
  /\ bids_of (snd (step s o)) j = bids_of s j
  /\ allowed_of (snd (step s o)) j = allowed_of s j
  /\ vqs_of (snd (step s o)) j = vqs_of s j
  /\ st_bseq (snd (step s o)) j = st_bseq s j
  /\ st_mlen (snd (step s o)) j = st_mlen s j
  /\ forall r d, st_bal (snd (step s o)) (Escrow r j) d = st_bal s (Escrow r j) d.
Proof.
  intros s o tid j T Hj. destruct (step_frame_tx s o tid T j Hj) as [A1 A2 A3 A4 A5 A6 A7]. auto 10.
Qed.
Print Assumptions C19_frame_tx.

(* processing one auction in a block changes nothing of any other auction *)
Theorem C19_frame_process : forall t orc s a s',
  process t orc s a = Ok s' -> forall j, j <> a_id a -> slice_eq j s s'.
Proof. intros t orc s a s' H. exact (pe_frame _ _ _ (process_eff _ _ _ _ _ H)). Qed.
Print Assumptions C19_frame_process.

(* an id without auction, and an auction that is finished, cancelled or not due (idle, BlockFacts.v),
   is left completely unchanged by a block, whatever its outcome *)
Theorem C19_frame_block : forall s o j,
  ids_ok s -> is_block o = true ->
  (find_auction s j = None \/ exists a, find_auction s j = Some a /\ idle (block_time o) s a) ->
  slice_eq j s (snd (step s o)).
Proof.
  intros s o j OK B H. destruct (step_block s o B) as [[Ho Hb]|[Ho (tr & Hs)]].
  - destruct H as [H|(a & F & Hi)];
      [exact (begin_block_absent _ _ _ _ OK Hb j H)|exact (begin_block_idle _ _ _ _ OK Hb j a F Hi)].
  - rewrite Hs. split; reflexivity.
Qed.
Print Assumptions C19_frame_block.

(* what a successful block does to auction a is what process does to it from a state s1 that agrees
   with the pre-state on everything about a (and on the parameters and listeners);
   the other auctions only enter through s1's remaining components *)
Theorem C19_block_independent : forall s t orc s' a,
  ids_ok s -> begin_block s t orc = Ok s' -> In a (st_auctions s) ->
  exists s1 s2, slice_eq (a_id a) s s1 /\ find_auction s1 (a_id a) = Some a
    /\ st_params s1 = st_params s /\ st_listeners s1 = st_listeners s /\ st_now s1 = t
    /\ process t orc s1 a = Ok s2 /\ slice_eq (a_id a) s2 s'.
Proof.
  intros s t orc s' a OK H HI.
  destruct (begin_block_at s t orc s' a OK H HI) as (s1 & s2 & A1 & G & A3 & A4).
  exists s1, s2. split; [exact A1|]. split; [rewrite (se_auction _ _ _ A1); exact (ids_ok_find _ _ OK HI)|].
  split; [exact (ge_params G)|]. split; [exact (ge_listeners G)|]. split; [exact (ge_now G)|]. split; [exact A3|exact A4].
Qed.
Print Assumptions C19_block_independent.

(* the terms of an auction never change *)
Theorem C19_terms : forall s o id a,
  ids_ok s -> o <> OGenesis -> find_auction s id = Some a ->
  exists a', find_auction (snd (step s o)) id = Some a'
    /\ (a_id a' = a_id a /\ a_type a' = a_type a /\ a_auctioneer a' = a_auctioneer a /\ a_upper a' = a_upper a
        /\ a_start_price a' = a_start_price a /\ a_sell_denom a' = a_sell_denom a /\ a_sell_amt a' = a_sell_amt a
        /\ a_pay_denom a' = a_pay_denom a /\ a_scheds a' = a_scheds a /\ a_start a' = a_start a
        /\ a_min_price a' = a_min_price a /\ a_max_round a' = a_max_round a /\ a_rate a' = a_rate a)
    /\ (a_ends a <> [] -> first_end a' = first_end a).
Proof. exact step_terms. Qed.
Print Assumptions C19_terms.

Theorem C19_terms_all : forall s o id a,     (* GENESIS included, under gen_ok *)
  gen_ok s -> find_auction s id = Some a ->
  exists a', find_auction (snd (step s o)) id = Some a' /\ terms0_eq a a'
             /\ (a_ends a <> [] -> first_end a' = first_end a).
Proof.
  intros s o id a G F. destruct (step_astep s o id a (or_introl G) F) as (a' & F' & R).
  exists a'. split; [exact F'|]. split; [exact (astep_terms _ _ _ _ R)|exact (astep_first_end _ _ _ _ R)].
Qed.
Print Assumptions C19_terms_all.

Theorem C19_terms_eqb : forall s o id a,
  ids_ok s -> bounded s -> o <> OGenesis -> find_auction s id = Some a ->
  exists a', find_auction (snd (step s o)) id = Some a' /\ Checkers.auction_terms_eqb a a' = true.
Proof.
  intros s o id a OK B Hg F. destruct (step_terms s o id a OK Hg F) as (a' & F' & T & Tf).
  exists a'. split; [exact F'|]. apply terms_eqb_of; [exact T|]. apply Tf.
  pose proof (find_auction_some _ _ _ F) as [HI _]. unfold bounded in B. rewrite Forall_forall in B.
  destruct (B a HI) as [[B1 _] _]. intros E. rewrite E in B1. cbn in B1. lia.
Qed.
Print Assumptions C19_terms_eqb.

(* every bid that can be looked up stays, with the same auction, id, bidder, type and denomination *)
Theorem C19_bids : forall s o a i b,
  ids_ok s -> o <> OGenesis -> find_bid s a i = Some b ->
  exists b', find_bid (snd (step s o)) a i = Some b'
    /\ b_auction b' = b_auction b /\ b_id b' = b_id b /\ b_bidder b' = b_bidder b /\ b_type b' = b_type b
    /\ b_denom b' = b_denom b.
Proof. intros s o a i b OK Hg F. exact (step_bids_evolve s o OK Hg a i b F). Qed.
Print Assumptions C19_bids.

Theorem C19_bids_in : forall s o b,
  ids_ok s -> bid_keys_unique s -> o <> OGenesis -> In b (st_bids s) ->
  exists b', In b' (st_bids (snd (step s o)))
    /\ b_auction b' = b_auction b /\ b_id b' = b_id b /\ b_bidder b' = b_bidder b /\ b_type b' = b_type b
    /\ b_denom b' = b_denom b.
Proof. intros s o b OK U Hg HI. exact (bids_evolve_by_in bid_keys_eq _ _ b U (step_bids_evolve s o OK Hg) HI). Qed.
Print Assumptions C19_bids_in.

Theorem C19_ids_ok_step : forall s o, ids_ok s -> o <> OGenesis -> ids_ok (snd (step s o)).
Proof. exact ids_ok_step. Qed.
Print Assumptions C19_ids_ok_step.

Theorem C19_aseq_mono : forall s o, ids_ok s -> o <> OGenesis -> (st_aseq s <= st_aseq (snd (step s o)))%N.
Proof.
  intros s o OK Hg. destruct (step_ids s o OK Hg) as [(a & C)|[_ H]].
  - rewrite (cr_aseq C). lia.
  - lia.
Qed.
Print Assumptions C19_aseq_mono.

Theorem C19_aseq_mono_all : forall s o, gen_ok s -> (st_aseq s <= st_aseq (snd (step s o)))%N.
Proof.
  intros s o G. destruct (op_eq_genesis_dec o) as [->|Hg].
  - destruct (genesis_auctions s G) as [_ ->]. lia.
  - apply C19_aseq_mono; [apply InvStaticBase.ids_seq_ids_ok; exact G|exact Hg].
Qed.
Print Assumptions C19_aseq_mono_all.

(* operations without a target auction (parameter update, listeners, plain sends; a rejected transaction
   keeps its target) change no record of any auction; only a plain send moves balances *)
Theorem C19_frame_untargeted : forall s o j,
  target s o = None -> is_block o = false -> o <> OGenesis ->
  find_auction (snd (step s o)) j = find_auction s j
  /\ bids_of (snd (step s o)) j = bids_of s j
  /\ allowed_of (snd (step s o)) j = allowed_of s j
  /\ vqs_of (snd (step s o)) j = vqs_of s j
  /\ st_bseq (snd (step s o)) = st_bseq s
  /\ st_mlen (snd (step s o)) = st_mlen s
  /\ ((forall from to d amt, o <> OSend from to d amt) -> st_bal (snd (step s o)) = st_bal s).
Proof.
  intros s o j T Hb Hg. pose proof (step_shape s o Hb Hg) as Sh. revert Sh.
  generalize (fst (step s o)) (snd (step s o)). intros out s' Sh. TxFacts.shape_cases Sh; try discriminate T.
  - (* SRej *) repeat split.
  - (* SSend *) repeat split. intros H. exfalso. exact (H from to d amt eq_refl).
  - (* SListeners *) repeat split.
  - (* SParams *) repeat split.
  - (* SCreate *) rewrite (target_create s m Hc) in T. discriminate T.
  - (* SAllowed *) congruence.
Qed.
Print Assumptions C19_frame_untargeted.

(* a successful creation takes the counter value and increments it: C08_creation_status;
   nothing else moves the counter: C08_no_other_creation *)

(* a rejected operation changes nothing but the hook trace *)
Theorem C19_rejected : forall s o c,
  fst (step s o) = Rejected c -> exists tr, snd (step s o) = with_trace s tr.
Proof.
  intros s o c Ho. destruct (FrameFacts.is_block o) eqn:B.
  - destruct (step_block s o B) as [[Ho' _]|[(c' & Ho') _]]; congruence.
  - assert (Hg : o <> OGenesis).
    { intros ->. cbn [step] in Ho. destruct (genesis_roundtrip s) as [[v s']|]; discriminate Ho. }
    pose proof (step_shape s o B Hg) as Sh. rewrite Ho in Sh. eapply tx_rejected. exact Sh.
Qed.
Print Assumptions C19_rejected.

Theorem C19_place_ids : forall s who id bt price coin,
  fst (step s (OTx (MPlaceBid who id bt price coin))) = Accepted ->
  exists nb, st_bids (snd (step s (OTx (MPlaceBid who id bt price coin)))) = st_bids s ++ [nb]
    /\ b_auction nb = id /\ b_id nb = (st_bseq s id + 1)%N
    /\ st_bseq (snd (step s (OTx (MPlaceBid who id bt price coin)))) = upd (st_bseq s) id (st_bseq s id + 1)%N.
Proof. exact place_accepted_appends. Qed.
Print Assumptions C19_place_ids.

Theorem C19_bseq_only_place : forall s o,
  ids_ok s -> o <> OGenesis ->
  st_bseq (snd (step s o)) = st_bseq s
  \/ (fst (step s o) = Accepted /\ exists who id bt price coin, o = OTx (MPlaceBid who id bt price coin)).
Proof.
  intros s o OK Hg. destruct (FrameFacts.is_block o) eqn:B.
  - left. exact (we_bseq _ _ (step_block_eff s o OK B)).
  - eapply tx_bseq. apply step_shape; assumption.
Qed.
Print Assumptions C19_bseq_only_place.

Example ex_hyps : ids_ok ex_s /\ bounded ex_s /\ bid_keys_unique ex_s.
Proof. exact (conj ex_ids_ok (conj ex_bounded ex_bid_keys_unique)). Qed.
Example ex_bid_targets_0 :          (* a second bid on auction 0: accepted, gets id 2; auction 1 untouched *)
  let o := OTx (MPlaceBid (AGood false 2) 0 1 (Some P) (coin 2 30)) in
  target ex_s o = Some 0%N /\ fst (step ex_s o) = Accepted
  /\ map b_id (bids_of (snd (step ex_s o)) 0) = [1%N; 2%N]
  /\ find_auction (snd (step ex_s o)) 1 = find_auction ex_s 1
  /\ st_bal (snd (step ex_s o)) (Escrow Selling 1) 1%N = 500.
Proof.
  (* the step is named and generalised, so that vm_compute evaluates it once and not once for every conjunct *)
  intros o. rewrite !ex_s_eq. set (r := step ex_s_nf o). revert r. revert o. vm_compute. repeat split; reflexivity.
Qed.
Example ex_rejected_keeps_counters : (* over the allowed maximum 100 *)
  let o := OTx (MPlaceBid (AGood false 2) 0 1 (Some P) (coin 2 80)) in
  fst (step ex_s o) = Rejected E_OVERMAX
  /\ st_bseq (snd (step ex_s o)) 0%N = 1%N /\ st_aseq (snd (step ex_s o)) = 2%N.
Proof. intros o. rewrite !ex_s_eq. set (r := step ex_s_nf o). revert r. revert o. vm_compute. repeat split; reflexivity. Qed.
Example ex_block_leaves_idle_alone : (* at t = 120 neither auction is due *)
  Forall (idle 120 ex_s) (st_auctions ex_s).
Proof. rewrite !ex_s_eq. vm_compute. repeat constructor. Qed.
Example ex_block_touches_only_due : (* at t = 160 auction 1 opens, auction 0 keeps its record *)
  find_auction (snd (step ex_s (OBlock 160 []))) 0 = find_auction ex_s 0
  /\ option_map a_status (find_auction (snd (step ex_s (OBlock 160 []))) 1) = Some Started.
Proof. rewrite !ex_s_eq. vm_compute. split; reflexivity. Qed.

(* C16, checker link: the executable monitor Checkers.c16_ok (a settled batch auction publishes flags, matched length
   and matched price that agree with the coins that moved; the flag of a fixed price bid says whether it bought
   anything; an instalment is flagged released exactly when it has been paid, and a flag is never cleared) can never
   fire on a transition the model makes from a state satisfying the invariant.  Proofs: Proofs/Chk16.v (on top of
   Proofs/Chk09.v). *)
From Coq Require Import ZArith List Bool.
From FR Require Import Types Model Checkers.
From FR.Proofs Require Import InvDefs Chk09 Chk16.
From FR.Properties Require C09_release C16.
Import ListNotations.
Open Scope Z_scope.

Theorem C16_checker : forall s o, Inv s -> oracle_ok s o -> c16_ok (model_trans s o) = true.
Proof. intros s o I _. exact (c16_ok_model s o I). Qed.
Print Assumptions C16_checker.

(* the checker the driver evaluates for C16: c16_ok and c16_genesis (the matched flags of the bids and the released
   flags of the instalments are after an export / import exactly what they were before) *)
Theorem C16_all_checker : forall s o, Inv s -> oracle_ok s o -> c16_all (model_trans s o) = true.
Proof. intros s o I _. exact (c16_all_model s o I). Qed.
Print Assumptions C16_all_checker.

Theorem C16_checker_settlement : forall s o, Inv s -> st_xfers s = [] -> c16_settle_part (trans_of s o) = true.
Proof. exact c16_settle_trans. Qed.
Print Assumptions C16_checker_settlement.

Theorem C16_checker_released : forall s o, Inv s -> st_xfers s = [] -> c16_vest_part (trans_of s o) = true.
Proof. exact c16_vest_trans. Qed.
Print Assumptions C16_checker_released.

Theorem C16_checker_parts : forall t, c16_ok t = c16_settle_part t && c16_vest_part t.
Proof. exact c16_ok_parts. Qed.

(* not vacuous: true on a batch settlement, a fixed price settlement with a vesting schedule, a release of two
   instalments at once; false when a matched flag is cleared in the observed post-state *)
(* the transition the examples read, evaluated once *)
Definition ex_batch_nf : trans := Eval vm_compute in model_trans C16.ex_s_nf (OBlock 200 C16.ex_orc).
Lemma ex_batch_eq : model_trans C16.ex_s (OBlock 200 C16.ex_orc) = ex_batch_nf.
Proof. rewrite C16.ex_s_eq. vm_compute. reflexivity. Qed.
Example ex_batch_settles : c16_ok (model_trans C16.ex_s (OBlock 200 C16.ex_orc)) = true.
Proof. rewrite !ex_batch_eq. vm_compute. reflexivity. Qed.
Example ex_batch_is_settling : length (settling (model_trans C16.ex_s (OBlock 200 C16.ex_orc))) = 1%nat.
Proof. rewrite !ex_batch_eq. vm_compute. reflexivity. Qed.
Example ex_fixed_settles :
  c16_ok (model_trans (run C09_release.ex_init [C09_release.ex_create; C09_release.ex_allow; C09_release.ex_bid]) (OBlock 200 [])) = true.
Proof. rewrite !C09_release.ex_s0_eq. vm_compute. reflexivity. Qed.
Example ex_release_two : c16_ok (model_trans C09_release.ex_s1 (OBlock 450 [])) = true.
Proof. rewrite !C09_release.ex_s1_eq. vm_compute. reflexivity. Qed.
Example ex_fires :
  let t := model_trans C16.ex_s (OBlock 200 C16.ex_orc) in
  c16_ok {| t_pre := t_pre t; t_op := t_op t; t_class := t_class t; t_xfers := t_xfers t; t_trace := t_trace t;
            t_post := with_bids (t_post t) (map (fun b => set_b_matched b false) (st_bids (t_post t)));
            t_fault := t_fault t; t_gen_valid := t_gen_valid t |} = false.
Proof. rewrite !ex_batch_eq. vm_compute. reflexivity. Qed.

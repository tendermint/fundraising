(* C13 (rule arithmetic): the extended-round rule of CloseBatchAuction,
       1 - cur/last >= rate      (cur, last: numbers of matched bids of this and the previous round),
   is evaluated with LegacyDec.Quo, i.e. cur/last rounded to 18 decimals (truncation of a 36-digit
   intermediate followed by banker's rounding).  q below is that rounded quotient scaled by P = 10^18;
   rate is scaled by P as well.  Proofs: Proofs/DecFacts.v. *)
From Coq Require Import ZArith Lia.
From FR Require Import Dec.
From FR.Proofs Require Import DecFacts.
Open Scope Z_scope.

(* the computed quotient is within one unit of the 18th decimal of the exact cur/last *)
Theorem C13_dec_quo_close : forall cur last, 0 <= cur -> 0 < last ->
  let q := dec_quo (dec_of_int cur) (dec_of_int last) in
  cur * P - last <= q * last <= cur * P + last.
Proof. exact dec_quo_close. Qed.
Print Assumptions C13_dec_quo_close.

(* the tighter version: within (1/2 + 1/P) of a unit; the upper bound is exactly half a unit *)
Theorem C13_dec_quo_half : forall cur last, 0 <= cur -> 0 < last ->
  let q := dec_quo (dec_of_int cur) (dec_of_int last) in
  2 * (q * last) <= 2 * (cur * P) + last
  /\ (2 * (cur * P) - last) * P - 2 * last < 2 * (q * last) * P.
Proof. exact dec_quo_half. Qed.
Print Assumptions C13_dec_quo_half.

(* the rule holds whenever the exact inequality holds with one unit of slack ... *)
Theorem C13_extend_rule_sound : forall cur last rate, 0 <= cur -> 0 < last ->
  rate * last <= (last - cur) * P - last -> extend_rule cur last rate = true.
Proof. intros cur last rate Hc Hl H. apply extend_rule_sound_half; [exact Hc|exact Hl|lia]. Qed.
Print Assumptions C13_extend_rule_sound.

(* ... and fails whenever the exact inequality fails by more than one unit *)
Theorem C13_extend_rule_complete : forall cur last rate, 0 <= cur -> 0 < last ->
  (last - cur) * P + last < rate * last -> extend_rule cur last rate = false.
Proof.
  intros cur last rate Hc Hl H. rewrite (extend_rule_scaled cur last rate Hl). apply Z.leb_gt.
  destruct (dec_quo_close cur last Hc Hl) as [Hlo Hup]. lia.
Qed.
Print Assumptions C13_extend_rule_complete.

(* when cur/last has at most 18 decimals there is no rounding at all *)
Theorem C13_extend_rule_exact : forall cur last rate, 0 <= cur -> 0 < last ->
  (cur * P) mod last = 0 ->
  extend_rule cur last rate = (rate * last <=? (last - cur) * P).
Proof. exact extend_rule_exact. Qed.
Print Assumptions C13_extend_rule_exact.

(* nothing matched in this round: the rule holds for every rate up to 1 *)
Theorem C13_extend_rule_nothing_matched : forall last rate, 0 < last -> rate <= P ->
  extend_rule 0 last rate = true.
Proof.
  intros last rate Hl Hr. rewrite extend_rule_exact by (try lia; rewrite Z.mul_0_l; apply Z.mod_0_l; lia).
  apply Z.leb_le. rewrite Z.sub_0_r, (Z.mul_comm last). apply Z.mul_le_mono_nonneg_r; lia.
Qed.
Print Assumptions C13_extend_rule_nothing_matched.

(* the number of matched bids did not drop: the rule fails for every positive rate *)
Theorem C13_extend_rule_no_drop : forall cur last rate, 0 < last -> last <= cur -> 0 < rate ->
  extend_rule cur last rate = false.
Proof. exact extend_rule_no_drop. Qed.
Print Assumptions C13_extend_rule_no_drop.

(* 2 matched after 3 matched; 1 - 0.666666666666666667 = 0.333333333333333333 *)
Example ex_quo : dec_quo (dec_of_int 2) (dec_of_int 3) = 666666666666666667.
Proof. vm_compute. reflexivity. Qed.
Example ex_rule_true : extend_rule 2 3 333333333333333333 = true.
Proof. unfold extend_rule. rewrite ex_quo. vm_compute. reflexivity. Qed.
Example ex_rule_false : extend_rule 2 3 333333333333333334 = false.
Proof. unfold extend_rule. rewrite ex_quo. vm_compute. reflexivity. Qed.
(* the hypotheses of sound / complete are satisfiable with these counts *)
Example ex_sound_hyp : 333333333333333332 * 3 <= (3 - 2) * P - 3.
Proof. vm_compute. discriminate. Qed.
Example ex_complete_hyp : (3 - 2) * P + 3 < 333333333333333335 * 3.
Proof. vm_compute. reflexivity. Qed.
(* exact case: 1 of 2 is 0.5 *)
Example ex_exact_hyp : (1 * P) mod 2 = 0.
Proof. vm_compute. reflexivity. Qed.
Example ex_exact_values : extend_rule 1 2 (P / 2) = true /\ extend_rule 1 2 (P / 2 + 1) = false.
Proof.
  assert (E : dec_quo (dec_of_int 1) (dec_of_int 2) = P / 2) by (vm_compute; reflexivity).
  unfold extend_rule. rewrite E. vm_compute. split; reflexivity.
Qed.
Example ex_edges : extend_rule 0 3 P = true /\ extend_rule 3 3 1 = false /\ extend_rule 4 3 1 = false.
Proof. vm_compute. repeat split. Qed.

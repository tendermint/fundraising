(* C12, checker link: the executable cancellation monitor Checkers.c12_ok can never fire on a transition of the model
   from a state satisfying the global invariant.  Proofs: Proofs/Chk12.v (with PrecondEffects.v, LifeTheorems.v). *)
From Coq Require Import ZArith NArith List.
From FR Require Import Dec Types Genesis Model Checkers.
From FR.Proofs Require Import InvDefs InvAll ExcessExamples Chk12.
Import ListNotations.
Open Scope Z_scope.

Theorem C12_checker : forall s o, Inv s -> oracle_ok s o -> c12_ok (model_trans s o) = true.
Proof. intros s o I _. exact (c12_ok_model s o I). Qed.
Print Assumptions C12_checker.

(* the oracle hypothesis is not needed *)
Theorem C12_checker_any_oracle : forall s o, Inv s -> c12_ok (model_trans s o) = true.
Proof. exact c12_ok_model. Qed.
Print Assumptions C12_checker_any_oracle.

Theorem C12_checker_reachable : forall bal now sw p ops o,
  (forall x d, 0 <= bal x d) -> coins_ok (p_cfee p) None = true -> coins_ok (p_bfee p) None = true ->
  c12_ok (model_trans (run (init_state bal now sw p) ops) o) = true.
Proof. intros bal now sw p ops o Hb H1 H2. apply c12_ok_model, Inv_reachable; assumption. Qed.
Print Assumptions C12_checker_reachable.

(* non-vacuity: a stand-by auction (start 500 > now 100) with a third-party deposit in its selling escrow is cancelled by
   its auctioneer (accepted: one transfer of 1000 + 7), by somebody else (rejected), and once more (rejected) *)
Definition c12_create : op :=
  OTx (MCreateFixed (AGood false 0) (Some P) (c01_coin 1 1000) (Some 2%N) [] 500 600).
Definition c12_gift : op := OSend 3 (Escrow Selling 0) 1 7.
Definition c12_cancel : op := OTx (MCancel (AGood true 0) 0).
Example C12_checker_ex :
  let s := run c01_init [c12_create; c12_gift] in
  let t := model_trans s c12_cancel in
  t_class t = KOk /\ map x_amt (t_xfers t) = [1007] /\ c12_ok t = true
  /\ t_class (model_trans s (OTx (MCancel (AGood true 1) 0))) = KRej
  /\ c12_ok (model_trans s (OTx (MCancel (AGood true 1) 0))) = true
  /\ t_class (model_trans (t_post t) c12_cancel) = KRej
  /\ c12_ok (model_trans (t_post t) c12_cancel) = true.
Proof. vm_compute. repeat split; reflexivity. Qed.

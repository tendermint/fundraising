(* C13 (structural part): the list of end times only grows by appending one extension round at a time,
   the number of rounds is bounded, and the extend / settle decision of CloseBatchAuction.
   Proofs: Proofs/FrameFacts.v (bounded), BlockFacts.v, LifeTheorems.v, GenesisFacts.v.  OGenesis is excluded by an explicit
   hypothesis, except in the _all theorems, which cover it under gen_ok. *)
From Coq Require Import ZArith NArith List Lia.
From FR Require Import Dec Types Match Step Model.
From FR.Proofs Require Import FrameFacts BlockFacts BlockWalk LifeTheorems GenesisFacts LifeExamples.
From FR.Proofs Require TxFacts.
Import ListNotations.
Open Scope Z_scope.

(* the end times of an existing auction: unchanged, or one more round, and the latter only for a started
   batch auction that is due in a successful block and has rounds left *)
Theorem C13_ends_grow : forall s o id a,
  ids_ok s -> o <> OGenesis -> find_auction s id = Some a ->
  exists a', find_auction (snd (step s o)) id = Some a'
    /\ (a_ends a' = a_ends a
        \/ (a_ends a' = a_ends a ++ [last_end a + p_period (st_params s) * day_ns]
            /\ a_type a = Batch /\ a_status a = Started /\ a_status a' = Started
            /\ is_block o = true /\ fst (step s o) = BlockOk
            /\ last_end a <= block_time o /\ N.of_nat (length (a_ends a)) <> (a_max_round a + 1)%N)).
Proof.
  intros s o id a OK Hg F. destruct (step_auction s o id a OK Hg F) as (a' & F' & R).
  exists a'. split; [exact F'|]. exact (astep_ends _ _ _ _ R).
Qed.
Print Assumptions C13_ends_grow.

(* a new auction has exactly one end time: see C08_creation_status *)

(* 1 <= #rounds <= max_round + 1 <= 31 for every auction: holds initially, kept by every step other than GENESIS
   (GENESIS: C13_bounded_all below) *)
Theorem C13_bounded_init : forall s, st_auctions s = [] -> bounded s.
Proof. exact bounded_empty. Qed.
Print Assumptions C13_bounded_init.

Theorem C13_bounded : forall s o, ids_ok s -> o <> OGenesis -> bounded s -> bounded (snd (step s o)).
Proof. exact bounded_step. Qed.
Print Assumptions C13_bounded.

Theorem C13_bounded_run : forall ops s,
  Forall (fun o => o <> OGenesis) ops -> ids_ok s -> bounded s -> ids_ok (run s ops) /\ bounded (run s ops).
Proof. exact run_ids_ok_bounded. Qed.
Print Assumptions C13_bounded_run.

(* every operation, GENESIS included, under gen_ok (see C08_gen_ok_invariant) *)
Theorem C13_bounded_all : forall s o, gen_ok s -> bounded s -> bounded (snd (step s o)).
Proof.
  intros s o G B. destruct (op_eq_genesis_dec o) as [->|Hg].
  - unfold bounded in *. destruct (genesis_auctions s G) as [-> _]. exact B.
  - apply C13_bounded; [apply InvStaticBase.ids_seq_ids_ok; exact G|exact Hg|exact B].
Qed.
Print Assumptions C13_bounded_all.

Theorem C13_bounded_run_all : forall ops s, gen_ok s -> bounded s -> gen_ok (run s ops) /\ bounded (run s ops).
Proof.
  intros ops s G B. apply (TxFacts.run_ind_all (fun s => gen_ok s /\ bounded s)); [|split; assumption].
  intros s0 o [G0 B0]. split; [apply gen_ok_step|apply C13_bounded_all]; assumption.
Qed.
Print Assumptions C13_bounded_run_all.

Theorem C13_ends_grow_all : forall s o id a,
  gen_ok s -> find_auction s id = Some a ->
  exists a', find_auction (snd (step s o)) id = Some a' /\ ends_rel s o a a'.
Proof.
  intros s o id a G F. destruct (step_astep s o id a (or_introl G) F) as (a' & F' & R).
  exists a'. split; [exact F'|exact (astep_ends _ _ _ _ R)].
Qed.
Print Assumptions C13_ends_grow_all.

(* the decision at the last round: with max_round + 1 end times a due auction is not extended again, closing it is the
   settlement (given the sweep order and the matching result) *)
Theorem C13_last_round_settles : forall s orc a order mi,
  length (a_ends a) = (N.to_nat (a_max_round a) + 1)%nat ->
  valid_order (bids_of s (a_id a)) (oracle_ids orc (a_id a)) = Some order ->
  calc_batch a (bids_of s (a_id a)) order (allowed_of s (a_id a)) = Some mi ->
  close_batch s orc a
  = settle_batch (set_flags s (a_id a) (mi_matched mi)) (set_matched_price a (mi_price mi)) mi.
Proof.
  intros s orc a order mi HL HV HC. rewrite (close_batch_unfold s orc a order mi HV HC).
  destruct (decision s a mi) eqn:D; [|reflexivity].
  apply decision_true_iff in D. destruct D as [D _]. exfalso. apply D. lia.
Qed.
Print Assumptions C13_last_round_settles.

Theorem C13_decision : forall s orc a order mi,
  valid_order (bids_of s (a_id a)) (oracle_ids orc (a_id a)) = Some order ->
  calc_batch a (bids_of s (a_id a)) order (allowed_of s (a_id a)) = Some mi ->
  close_batch s orc a =
    (if decision s a mi
     then Ok (put_auction (set_flags s (a_id a) (mi_matched mi))
                (set_ends (set_matched_price a (mi_price mi))
                          (a_ends a ++ [last_end a + p_period (st_params s) * day_ns])))
     else settle_batch (set_flags s (a_id a) (mi_matched mi)) (set_matched_price a (mi_price mi)) mi)
  /\ (decision s a mi = true <->
      N.of_nat (length (a_ends a)) <> (a_max_round a + 1)%N
      /\ (st_mlen s (a_id a) = 0
          \/ extend_rule (Z.of_nat (length (mi_matched mi))) (st_mlen s (a_id a)) (a_rate a) = true)).
Proof.
  intros s orc a order mi HV HC. split; [exact (close_batch_unfold s orc a order mi HV HC)|apply decision_true_iff].
Qed.
Print Assumptions C13_decision.

(* examples: the batch auction of ex_s (max_round 2), opened at t = 160, no bids, so every due
   block extends it while rounds remain (last matched length 0) and the third one settles it *)
Example ex_bounded_holds : bounded ex_s.
Proof. exact ex_bounded. Qed.
Example ex_extend_1 :
  map a_ends (st_auctions (snd (step ex_s2 (OBlock 350 [])))) = [[200]; [300; 300 + day_ns]].
Proof. rewrite !ex_s2_eq. vm_compute. reflexivity. Qed.
Example ex_extend_2_then_settle :
  let s3 := snd (step ex_s2 (OBlock 350 [])) in
  let s4 := snd (step s3 (OBlock (300 + day_ns) [])) in
  let s5 := snd (step s4 (OBlock (300 + 2 * day_ns) [])) in
  map (fun a => length (a_ends a)) (st_auctions s4) = [1%nat; 3%nat]
  /\ map a_status (st_auctions s4) = [Finished; Started]
  /\ map (fun a => length (a_ends a)) (st_auctions s5) = [1%nat; 3%nat]
  /\ map a_status (st_auctions s5) = [Finished; VestingS].
Proof. rewrite !ex_s2_eq. vm_compute. repeat split; reflexivity. Qed.

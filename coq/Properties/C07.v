(* C07: block processing never fails, and never hides a failure.
   Proofs: Proofs/InvAll.v (the global invariant holds in every reachable state; liveness per auction and per block),
   Proofs/LiveFacts.v (verdicts, error propagation, existence of a valid sweep order, checker link).
   The sweep order of each due batch auction is oracle data validated by the model (Match.valid_order: a duplicate-free
   rearrangement of the auction's bids with non-increasing prices, equal prices in the order of the bid ids); the
   statements hold for every oracle that passes this validation.  The order it admits is unique, so all such oracles
   give the same block (LiveFacts.block_oracle_irrelevant).
   Arithmetic is unbounded in the model: the 256/315-bit overflow panics of the Go types are outside these theorems
   (DESIGN.md, trusted base; the one such panic found, D18, is repaired in the repository and its history is a regression test). *)
From Coq Require Import ZArith List.
From FR Require Import Types Match Step Genesis Model Spec Checkers.
From FR.Proofs Require Import InvDefs FrameFacts BlockFacts BlockWalk InvAll FixedFacts LiveFacts ExcessExamples ExampleRuns.
From FR.Proofs Require GenesisFacts MatchDemand MatchConseq PrecondFacts EscrowBlock.
Import ListNotations.
Open Scope Z_scope.

(* 0. the invariant these theorems assume holds in every reachable state *)
Theorem C07_invariant_reachable : forall bal now sw p ops,
  (forall x d, 0 <= bal x d) -> coins_ok (p_cfee p) None = true -> coins_ok (p_bfee p) None = true ->
  Inv (run (init_state bal now sw p) ops).
Proof. exact Inv_reachable. Qed.
Print Assumptions C07_invariant_reachable.

Theorem C07_invariant_step : forall s o, Inv s -> Inv (snd (step s o)).
Proof. exact Inv_step. Qed.
Print Assumptions C07_invariant_step.

(* 1. a block succeeds in every such state, at every block time, whatever the (valid) sweep orders, whatever the mix of
   stand-by, started, vesting, finished and cancelled auctions, empty books, zero proceeds - unless a registered listener
   vetoes the allocation hook *)
Theorem C07_block_never_fails : forall s t orc,
  Inv s -> no_veto s H_BeforeAllocated = true -> oracle_ok s (OBlock t orc) ->
  fst (step s (OBlock t orc)) = BlockOk /\ Inv (snd (step s (OBlock t orc))).
Proof. exact block_never_fails. Qed.
Print Assumptions C07_block_never_fails.

Theorem C07_reachable_block_never_fails : forall bal now sw p ops t orc,
  (forall x d, 0 <= bal x d) -> coins_ok (p_cfee p) None = true -> coins_ok (p_bfee p) None = true ->
  let s := run (init_state bal now sw p) ops in
  st_listeners s = [] -> oracle_ok s (OBlock t orc) -> fst (step s (OBlock t orc)) = BlockOk.
Proof.
  intros bal now sw p ops t orc Hb H1 H2 s Hl Ho.
  apply block_never_fails; [apply Inv_reachable; assumption| |exact Ho].
  unfold no_veto. rewrite Hl. reflexivity.
Qed.
Print Assumptions C07_reachable_block_never_fails.

(* the only possible failure is that veto *)
Theorem C07_fails_only_by_veto : forall s t orc,
  Inv s -> oracle_ok s (OBlock t orc) ->
  fst (step s (OBlock t orc)) = BlockOk \/ fst (step s (OBlock t orc)) = BlockErr E_HOOK.
Proof. exact block_fails_only_by_veto. Qed.
Print Assumptions C07_fails_only_by_veto.

(* a valid oracle always exists (bids sorted by price, descending), so the statements above are not vacuous *)
Theorem C07_valid_oracle_exists : forall s t, Inv s -> oracle_ok s (OBlock t (natural_orc s)).
Proof. exact natural_oracle_ok. Qed.
Print Assumptions C07_valid_oracle_exists.

(* one auction at a time: processing succeeds from any state of the walk *)
Theorem C07_process_live : forall t orc s a,
  Inv s -> find_auction s (a_id a) = Some a -> no_veto s H_BeforeAllocated = true ->
  (a_type a = Batch -> a_status a = Started -> last_end a <= t ->
   exists order, valid_order (bids_of s (a_id a)) (oracle_ids orc (a_id a)) = Some order) ->
  exists s', process t orc s a = Ok s'.
Proof. exact process_live. Qed.
Print Assumptions C07_process_live.

(* 2. a failure is never hidden: whichever auction of the walk fails (first, middle or last), the block returns that
   error and none of the block's effects on balances, auctions, bids, vesting queues and matched counts is kept (only
   the block time is: C07_fault_reported) *)
Theorem C07_failure_reported : forall s t orc l1 a l2 s1 c tr,
  st_auctions s = l1 ++ a :: l2 ->
  process_all t orc (with_now s t) l1 = Ok s1 -> process t orc s1 a = Err c tr ->
  fst (step s (OBlock t orc)) = BlockErr c
  /\ st_bal (snd (step s (OBlock t orc))) = st_bal s /\ st_auctions (snd (step s (OBlock t orc))) = st_auctions s
  /\ st_bids (snd (step s (OBlock t orc))) = st_bids s /\ st_vqs (snd (step s (OBlock t orc))) = st_vqs s
  /\ st_mlen (snd (step s (OBlock t orc))) = st_mlen s.
Proof.
  intros s t orc l1 a l2 s1 c tr Hs H1 H2. assert (H : begin_block s t orc = Err c tr).
  { rewrite begin_block_eq, Hs.
    eapply process_all_error; eassumption. }
  cbn [step]. rewrite H. repeat split.
Qed.
Print Assumptions C07_failure_reported.

(* a successful block means every auction of the store was processed successfully, in store order *)
Theorem C07_success_means_all : forall t orc l1 a l2 s s',
  process_all t orc s (l1 ++ a :: l2) = Ok s' ->
  exists s1 s2, process_all t orc s l1 = Ok s1 /\ process t orc s1 a = Ok s2 /\ process_all t orc s2 l2 = Ok s'.
Proof.
  intros t orc l1 a l2 s s' H. apply process_all_app in H.
  destruct H as (s1 & H1 & H2). cbn [process_all] in H2.
  destruct (process t orc s1 a) as [s2|] eqn:E; cbn [bind] in H2; [|discriminate]. eauto.
Qed.
Print Assumptions C07_success_means_all.

(* an injected failure of the k-th bank transfer of the block is reported and everything but the block time is rolled back *)
Theorem C07_fault_reported : forall s t orc k s',
  begin_block s t orc = Ok s' -> (k < length (st_xfers s') - length (st_xfers s))%nat ->
  step s (OFaultBlock t orc k) = (BlockErr E_FAULT, with_now s t).
Proof.
  intros s t orc k s' H Hk. cbn [step]. rewrite H.
  apply Nat.ltb_lt in Hk. rewrite Hk. reflexivity.
Qed.
Print Assumptions C07_fault_reported.

(* 3. the executable statement evaluated on implementation traces holds of every model transition from a state
   satisfying Inv, under a valid block oracle *)
Theorem C07_checker : forall s o, Inv s -> oracle_ok s o -> c07_ok (model_trans s o) = true.
Proof. exact c07_ok_model. Qed.
Print Assumptions C07_checker.

(* 4. every side condition assumed by the theorems of the other property files is a consequence of the invariant,
   hence holds in every reachable state: distinct auction ids (ids_ok / gen_ok), well-formed order books and
   denominations (C03/C04/C05), WF and positive bids (C11/C12/C18), vesting queues (C09), matched counts (C13/C16) *)
Theorem C07_invariant_consequences : forall s, Inv s ->
  ids_ok s /\ GenesisFacts.gen_ok s /\ PrecondFacts.WF s /\ PrecondFacts.bids_pos s
  /\ (forall id, MatchDemand.book_wf (bids_of s id) (allowed_of s id))
  /\ (forall a, find_auction s (a_id a) = Some a -> a_type a = Batch ->
        MatchConseq.denoms_wf (a_pay_denom a) (bids_of s (a_id a)))
  /\ vqs_wf s /\ mlen_inv s /\ ids_seq s /\ bids_allowed s /\ remaining_inv s /\ escrow_inv s.
Proof.
  intros s I.
  split; [apply (Inv_ids_ok s I)|].
  split; [apply (inv_ids _ I)|].
  split; [apply (Inv_WF s I)|].
  split; [apply (Inv_bids_pos s I)|].
  split; [intros id; apply EscrowBlock.Inv_book_wf, I|].
  split; [intros a Fa Ty; apply EscrowBlock.Inv_denoms_wf; assumption|].
  split; [apply (inv_vqs _ I)|].
  split; [apply (inv_mlen _ I)|].
  split; [apply (inv_ids _ I)|].
  split; [apply (inv_bids_allowed _ I)|].
  split; [apply (inv_remaining _ I)|apply (inv_escrow _ I)].
Qed.
Print Assumptions C07_invariant_consequences.

(* non-vacuity: the closing block and the releasing block of the history of ExcessExamples.v *)
Example C07_ex_close :
  fst (step (run c01_init c01_hist3) (OBlock 250 (natural_orc (run c01_init c01_hist3)))) = BlockOk.
Proof. rewrite !c01_hist3_eq. vm_compute. reflexivity. Qed.
Example C07_ex_terminal :   (* a block over a finished auction *)
  map a_status (st_auctions (run c01_init c01_hist5)) = [Finished] /\
  fst (step (run c01_init c01_hist5) (OBlock 500 [])) = BlockOk.
Proof. rewrite !c01_hist5_eq. split; vm_compute; reflexivity. Qed.
Example C07_ex_veto :       (* a vetoing listener makes the closing block fail with E_HOOK, nothing is kept *)
  let s := snd (step (run c01_init c01_hist3) (OSetListeners [[]; [H_BeforeAllocated]])) in
  fst (step s (OBlock 250 [])) = BlockErr E_HOOK /\ st_bal (snd (step s (OBlock 250 []))) (Escrow Paying 0) 2 = 57.
Proof. rewrite !c01_hist3_eq. split; vm_compute; reflexivity. Qed.

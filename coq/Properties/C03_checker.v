(* C03, checker link: the executable statement Checkers.c03_ok (at the settlement of a batch auction every bidder other
   than the auctioneer receives - summed over ALL the transfers of the block out of the auction's selling escrow -
   exactly Spec.spec_alloc, the capped demand at the declarative clearing price, and the published price is that
   clearing price, 0 if there is none) holds of every transition the model makes from a state satisfying the global
   invariant, whatever valid sweep order the block's oracle supplies.  "Every bidder" is, in the checker, every account of
   Checkers.users (0 .. 5, the accounts the harness drives); the same holds of c04_batch and c05_ok.
   Proofs: Proofs/ChkSettle.v (which transfers of a block the sums see), Proofs/Chk03.v. *)
From Coq Require Import ZArith NArith List.
From FR Require Import Dec Types Spec Checkers.
From FR.Proofs Require Import InvDefs ChkSettleExamples Chk03.
Import ListNotations.
Open Scope Z_scope.

Theorem C03_checker : forall s o, Inv s -> oracle_ok s o -> c03_ok (model_trans s o) = true.
Proof. intros s o I _. exact (c03_ok_model s o I). Qed.
Print Assumptions C03_checker.

(* the oracle hypothesis is not needed: a block whose oracle is invalid settles nothing *)
Theorem C03_checker_inv : forall s o, Inv s -> c03_ok (model_trans s o) = true.
Proof. exact c03_ok_model. Qed.
Print Assumptions C03_checker_inv.

(* the hypotheses are satisfiable, and the checker is not vacuous there (history of ChkSettleExamples.v: supply 100,
   user 2 capped at 60 bids 30 @ 3.0 and 40 @ 1.0, user 3 capped at 100 bids worth 101 @ 2.0; the capped demand is
   30 @ 3.0, 80 @ 2.0, 160 @ 1.0, so the auction clears at 2.0) *)
Example C03_checker_ex_hyps : Inv chk_state /\ oracle_ok chk_state chk_close.
Proof. split; [exact chk_state_Inv|exact chk_oracle_ok]. Qed.
Example C03_checker_ex_settles :
  let tr := model_trans chk_state chk_close in
  t_class tr = KBlockOk
  /\ map (fun p => (a_id (fst p), a_type (fst p), a_matched_price (snd p))) (settling tr)
     = [(0%N, FixedPrice, 0); (1%N, Batch, 2 * P)]
  /\ clearing_spec (bids_of chk_state 1) (allowed_of chk_state 1) 100 = Some (2 * P)
  /\ map (received tr 1 1) [2%N; 3%N; 4%N] = [30; 50; 0]
  /\ c03_ok tr = true.
Proof.
  intros tr. rewrite (c03_ok_model chk_state chk_close chk_state_Inv : c03_ok tr = true).
  revert tr. rewrite chk_state_eq. vm_compute. repeat split; reflexivity.
Qed.

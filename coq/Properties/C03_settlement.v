(* C03 at the level of the bank transfers of a settlement (from the matching facts behind C03_calc_batch_spec and
   C03_alloc_is_spec_alloc, the transfers of a settlement of LedgerSettle and the global invariant): in every
   reachable state, when BeginBlocker settles a batch auction, whatever valid sweep order the runtime produced, the
   selling coins bidder u receives are exactly spec_alloc - the capped demand of u at the declarative clearing price
   (lowest bid price whose total capped demand fits the offered amount; nothing when no price qualifies or the
   qualifying demand is zero) - and the published price is that clearing price (0 if nothing is sold). *)
From Coq Require Import ZArith NArith List.
From FR Require Import Types Match Step Spec Checkers.
From FR.Proofs Require Import InvDefs Ledger LedgerSettle.
From FR.Proofs Require MatchBatch ChkSettle.
Import ListNotations.
Open Scope Z_scope.

Theorem C03_settlement : forall t orc s a s' a',
  Inv s -> find_auction s (a_id a) = Some a -> a_status a = Started -> a_type a = Batch ->
  process t orc s a = Ok s' ->
  find_auction s' (a_id a) = Some a' -> (a_status a' = VestingS \/ a_status a' = Finished) ->
  let bs := bids_of s (a_id a) in
  let al := allowed_of s (a_id a) in
  exists mi,
    ledger_by s s' (settle_xfers s a mi true)
    /\ (forall u, mi_alloc mi u = spec_alloc bs al (a_sell_amt a) u)
    /\ (forall u, sum_xfers (settle_xfers s a mi true) (from_to (Escrow Selling (a_id a)) (User u) (a_sell_denom a))
                  = (if existsb (N.eqb u) (bidders_of bs) then spec_alloc bs al (a_sell_amt a) u else 0)
                    + (if N.eqb (a_auctioneer a) u then unsold_of s a mi else 0))
    /\ mi_price mi = match clearing_spec bs al (a_sell_amt a) with Some p => p | None => 0 end
    /\ a_matched_price a' = mi_price mi.
Proof.
  intros t orc s a s' a' I Fa St Ty H Fa' Hst' bs al. subst bs al.
  destruct (ChkSettle.settling_step t orc s a s' a' I Fa St H Fa' Hst') as (mi & wr & L & V).
  pose proof (ChkSettle.sv_book V) as BW. pose proof (ChkSettle.sv_supply V) as Hsup.
  pose proof (ChkSettle.sv_settles V) as Hw. pose proof (ChkSettle.sv_batch V) as Hbat.
  pose proof (settles_with_wr _ _ _ _ _ _ Hw) as Ew. rewrite Ty in Ew. subst wr.
  destruct (settles_with_batch _ _ _ _ _ Hw) as (_ & _ & order & HV & HC).
  exists mi. split; [exact L|].
  pose proof (MatchBatch.calc_batch_alloc_of a _ _ order _ mi BW HV Hsup HC) as Hspec.
  pose proof (MatchBatch.calc_batch_spec_of a _ _ order _ mi BW HV Hsup HC) as Hcl.
  split; [exact Hspec|]. split.
  - intros u. rewrite (ChkSettle.sv_received V u), Hspec. reflexivity.
  - split; [|exact (proj1 (Hbat eq_refl))].
    destruct (clearing_spec (bids_of s (a_id a)) (allowed_of s (a_id a)) (a_sell_amt a)); apply Hcl.
Qed.
Print Assumptions C03_settlement.

(* C10, checker link: the executable monitor Checkers.c10_ok (every recorded bid belongs to an account the allow-list
   contained when it was recorded; with the switch EnableAddAllowedBidder off no transaction touches the allow-list
   and MsgAddAllowedBidder is never accepted) accepts every transition of the model from a state satisfying the
   invariant.  Proof: Proofs/Chk10.v. *)
From Coq Require Import ZArith NArith List.
From FR Require Import Types Model Checkers.
From FR.Proofs Require Import InvDefs InvAll ExcessExamples Chk10.
Import ListNotations.
Open Scope Z_scope.

Theorem C10_checker : forall s o, Inv s -> oracle_ok s o -> c10_ok (model_trans s o) = true.
Proof. intros s o I _. exact (c10_ok_model s o I). Qed.
Print Assumptions C10_checker.

(* the hypothesis is satisfiable.  Switch on (c01_init): the allow-list message is accepted, the bid of the
   listed account is recorded, the bid of an unlisted account is rejected.  Switch off: the same allow-list message
   is rejected and the keeper API still works. *)
Definition c10_off : state := init_state c01_bal 100 false c01_params.

Example C10_checker_ex_reachable : Inv (run c01_init [c01_create]) /\ Inv (run c10_off [c01_create]).
Proof. split; (apply Inv_reachable; [intros [u|r a|] d; cbn; discriminate|reflexivity|reflexivity]). Qed.
Example C10_checker_ex_on :
  t_class (model_trans (run c01_init [c01_create]) c01_allow) = KOk
  /\ c10_ok (model_trans (run c01_init [c01_create]) c01_allow) = true
  /\ t_class (model_trans (run c01_init [c01_create; c01_allow]) c01_bid) = KOk
  /\ c10_ok (model_trans (run c01_init [c01_create; c01_allow]) c01_bid) = true
  /\ t_class (model_trans (run c01_init [c01_create]) c01_bid) = KRej
  /\ c10_ok (model_trans (run c01_init [c01_create]) c01_bid) = true.
Proof. vm_compute. repeat split; reflexivity. Qed.
Example C10_checker_ex_off :
  t_class (model_trans (run c10_off [c01_create]) c01_allow) = KRej
  /\ c10_ok (model_trans (run c10_off [c01_create]) c01_allow) = true
  /\ t_class (model_trans (run c10_off [c01_create]) (OApiAdd 0 [(0%N, AGood false 2%N, Some 100)])) = KOk
  /\ c10_ok (model_trans (run c10_off [c01_create]) (OApiAdd 0 [(0%N, AGood false 2%N, Some 100)])) = true.
Proof. vm_compute. repeat split; reflexivity. Qed.

(* C19: identifiers.  In every state reachable from the empty module by operations other than OGenesis
   (whatever the block oracles are: a block with an invalid oracle fails and changes nothing),
   the auction ids are exactly 0, 1, ..., n-1 in store order, the store order is the creation order,
   and per auction the bid ids are exactly 1, 2, ..., k in store order, which is the placement order. *)
From Coq Require Import ZArith NArith List.
From FR Require Import Types Genesis Model Spec.
From FR.Proofs Require Import TxFacts InvDefs InvStatic InvStaticExamples ExampleRuns.
Import ListNotations.
Open Scope Z_scope.

Theorem C19_auction_ids : forall bal now sw p ops,
  coins_ok (p_cfee p) None = true -> coins_ok (p_bfee p) None = true ->
  Forall (fun o => o <> OGenesis) ops ->
  let s := run (init_state bal now sw p) ops in
  map a_id (st_auctions s) = ids_upto (st_aseq s).
Proof. intros bal now sw p ops H1 H2 HF. exact (is_ids _ (InvS_reachable bal now sw p ops H1 H2 HF)). Qed.
Print Assumptions C19_auction_ids.

Theorem C19_bid_ids : forall bal now sw p ops,
  coins_ok (p_cfee p) None = true -> coins_ok (p_bfee p) None = true ->
  Forall (fun o => o <> OGenesis) ops ->
  let s := run (init_state bal now sw p) ops in
  forall id, map b_id (bids_of s id) = map N.succ (ids_upto (st_bseq s id)).
Proof. intros bal now sw p ops H1 H2 HF. exact (proj2 (is_bids _ (InvS_reachable bal now sw p ops H1 H2 HF))). Qed.
Print Assumptions C19_bid_ids.

Theorem C19_step : forall s o, InvS s -> o <> OGenesis ->
  let s' := snd (step s o) in
  map a_id (st_auctions s') = ids_upto (st_aseq s')
  /\ forall id, map b_id (bids_of s' id) = map N.succ (ids_upto (st_bseq s' id)).
Proof.
  intros s o I Hg. pose proof (InvS_step s o I Hg) as I'. split; [exact (is_ids _ I')|exact (proj2 (is_bids _ I'))].
Qed.
Print Assumptions C19_step.

(* store order is creation order: an accepted creation appends the auction and gives it the next id *)
Theorem C19_creation_order : forall s m,
  is_create m = true -> fst (step s (OTx m)) = Accepted ->
  exists a, st_auctions (snd (step s (OTx m))) = st_auctions s ++ [a] /\ a_id a = st_aseq s
            /\ st_aseq (snd (step s (OTx m))) = (st_aseq s + 1)%N.
Proof.
  intros s m Hc Ha. assert (Hg : OTx m <> OGenesis) by discriminate.
  pose proof (step_shape s (OTx m) eq_refl Hg) as Sh. rewrite Ha in Sh.
  destruct (tx_create _ _ _ Sh Hc) as (a & C). exists a. split; [exact (cr_auctions C)|]. split; [exact (cr_id C)|exact (cr_aseq C)].
Qed.
Print Assumptions C19_creation_order.

(* store order is placement order: an accepted bid is appended and gets the auction's next bid id *)
Theorem C19_placement_order : forall s who id bt price coin,
  fst (step s (OTx (MPlaceBid who id bt price coin))) = Accepted ->
  exists nb, st_bids (snd (step s (OTx (MPlaceBid who id bt price coin)))) = st_bids s ++ [nb]
             /\ b_auction nb = id /\ b_id nb = (st_bseq s id + 1)%N
             /\ st_bseq (snd (step s (OTx (MPlaceBid who id bt price coin)))) id = (st_bseq s id + 1)%N.
Proof.
  intros s who id bt price coin Ha. destruct (place_accepted_appends s who id bt price coin Ha) as (nb & H1 & H2 & H3 & H4).
  exists nb. split; [exact H1|]. split; [exact H2|]. split; [exact H3|]. rewrite H4. unfold upd. rewrite N.eqb_refl. reflexivity.
Qed.
Print Assumptions C19_placement_order.

(* the hypotheses are satisfiable: a history with two auctions, an allow-listed bidder, bids *)
Example ex_params_ok : coins_ok (p_cfee c19_params) None = true /\ coins_ok (p_bfee c19_params) None = true.
Proof. split; vm_compute; reflexivity. Qed.
Example ex_no_genesis : Forall (fun o => o <> OGenesis) c19_ops.
Proof. repeat constructor; discriminate. Qed.
Example ex_InvS : InvS c19_s.
Proof. apply InvS_reachable; [apply ex_params_ok|apply ex_params_ok|exact ex_no_genesis]. Qed.
(* auctions 0 and 1; auction 0 has bids 1, 2 (the third was rejected), auction 1 has bid 1 *)
Example ex_ids :
  map a_id (st_auctions c19_s) = [0; 1]%N /\ st_aseq c19_s = 2%N
  /\ map b_id (bids_of c19_s 0) = [1; 2]%N /\ st_bseq c19_s 0 = 2%N
  /\ map b_id (bids_of c19_s 1) = [1]%N /\ st_bseq c19_s 1 = 1%N
  /\ map (fun b => (b_auction b, b_id b)) (st_bids c19_s) = [(0, 1); (1, 1); (0, 2)]%N.
Proof. rewrite c19_s_eq. vm_compute. repeat split; reflexivity. Qed.
Example ex_statuses : map a_status (st_auctions c19_s) = [Finished; Started].
Proof. rewrite c19_s_eq. vm_compute. reflexivity. Qed.

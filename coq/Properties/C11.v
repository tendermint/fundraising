(* C11: a bid of a started batch auction can be modified exactly by its bidder, to terms that are nowhere
   lower and somewhere strictly higher, in the same denomination, at or above the minimum bid price, when the
   bidder can pay the increase of the reservation (and no listener vetoes); the modification rewrites price
   and amount of that bid only, never lowers the reservation, and moves exactly the increase into escrow. *)
From Coq Require Import ZArith NArith List Bool Lia.
From FR Require Import Dec Types Match Step Model Spec.
From FR.Proofs Require Import PrecondFacts PrecondEffects PrecondExamples.
From FR.Proofs Require EqbFacts BankFacts FrameFacts TxFacts VestingFacts Ledger PrecondBase.
Import ListNotations.
Open Scope Z_scope.

Theorem C11_modify_iff : forall s who id bid_id price coin,
  WF s ->
  (fst (deliver_tx s (MModifyBid who id bid_id price coin)) = Accepted <->
   exists up u p d amt a b,
     (* a well-formed message *)
     who = AGood up u /\ price = Some p /\ 0 < p /\ mc_denom coin = Some d /\ mc_amt coin = Some amt /\ 0 < amt /\
     (* a started batch auction and one of the signer's bids in it *)
     find_auction s id = Some a /\ find_bid s id bid_id = Some b /\
     a_type a = Batch /\ a_status a = Started /\ b_bidder b = u /\
     (* the new terms *)
     a_min_price a <= p /\ d = b_denom b /\ b_price b <= p /\ b_amt b <= amt /\
     (b_price b < p \/ b_amt b < amt) /\
     (* the signer can pay the increase of the reservation *)
     pay_amount (a_pay_denom a) (set_b_terms b p amt) - pay_amount (a_pay_denom a) b
       <= st_bal s (User u) (a_pay_denom a) /\
     no_veto s H_BeforeBidModified = true).
Proof.
  intros s who id bid_id price coin.
  intros W. rewrite PrecondBase.accepted_deliver. split.
  - destruct (check_basic (MModifyBid who id bid_id price coin)) as [c|] eqn:Hc; [|intros []].
    apply check_basic_modify in Hc.
    destruct Hc as (up & u & p & d & amt & Hw & Hpr & Hp & Hd & Ham & Ha & ->).
    cbn [handle]. rewrite (modify_ok_iff s u id bid_id p d amt W), andb_true_iff, modify_precond_iff.
    intros [(a & b & H) Hv]. exists up, u, p, d, amt, a, b. tauto.
  - intros (up & u & p & d & amt & a & b & Hw & Hpr & Hp & Hd & Ham & Ha & H).
    rewrite (proj2 (check_basic_modify who id bid_id price coin (CModifyBid u id bid_id p d amt))).
    + cbn [handle]. rewrite (modify_ok_iff s u id bid_id p d amt W), andb_true_iff, modify_precond_iff.
      split; [exists a, b|]; tauto.
    + exists up, u, p, d, amt. repeat split; assumption.
Qed.
Print Assumptions C11_modify_iff.

Theorem C11_effects : forall s up u id bid_id p d amt a b,
  WF s -> bids_pos s ->
  let m := MModifyBid (AGood up u) id bid_id (Some p) {| mc_denom := Some d; mc_amt := Some amt |} in
  fst (deliver_tx s m) = Accepted -> find_auction s id = Some a -> find_bid s id bid_id = Some b ->
  let s' := snd (deliver_tx s m) in
  let b' := set_b_terms b p amt in
  let pd := a_pay_denom a in
  let diff := pay_amount pd b' - pay_amount pd b in
  (* the bid carries the new terms, everything else about it is unchanged *)
  find_bid s' id bid_id = Some b' /\
  b_auction b' = b_auction b /\ b_id b' = b_id b /\ b_bidder b' = b_bidder b /\ b_type b' = b_type b /\
  b_denom b' = b_denom b /\ b_matched b' = b_matched b /\ b_price b' = p /\ b_amt b' = amt /\
  (* no bid is removed or added, every other bid is unchanged *)
  st_bids s' = map (fun x => if N.eqb (b_auction x) id && N.eqb (b_id x) bid_id then b' else x) (st_bids s) /\
  length (st_bids s') = length (st_bids s) /\
  (forall i j, i <> id \/ j <> bid_id -> find_bid s' i j = find_bid s i j) /\
  (* the rest of the store is unchanged *)
  st_params s' = st_params s /\ st_auctions s' = st_auctions s /\ st_allowed s' = st_allowed s /\
  st_vqs s' = st_vqs s /\ st_aseq s' = st_aseq s /\ st_bseq s' = st_bseq s /\ st_mlen s' = st_mlen s /\
  st_now s' = st_now s /\ st_listeners s' = st_listeners s /\ st_switch s' = st_switch s /\
  (* the reservation never decreases; exactly its increase is moved into the paying escrow *)
  0 <= diff /\
  st_xfers s' = st_xfers s ++
                (if 0 <? diff
                 then [{| x_from := User u; x_to := Escrow Paying id; x_denom := pd; x_amt := diff |}]
                 else []) /\
  st_bal s' (User u) pd = st_bal s (User u) pd - diff /\
  st_bal s' (Escrow Paying id) pd = st_bal s (Escrow Paying id) pd + diff.
Proof.
  intros s up u id bid_id p d amt a b W Hpos. cbv zeta. intros Hacc Ea Eb.
  pose proof (modify_reservation_grows s up u id bid_id p d amt a b Hpos Hacc Ea Eb) as Hdiff.
  destruct (accepted_modify s up u id bid_id p d amt Hacc) as (a' & b' & Ea' & Eb' & G & ->).
  rewrite Ea in Ea'. injection Ea' as <-. rewrite Eb in Eb'. injection Eb' as <-.
  pose proof (TxFacts.md_batch G) as Ty. destruct (TxFacts.md_denom G).
  (* the state is TxFacts.modify_post: the bid with its new terms is put, the increase of the reservation is sent *)
  split; [exact (TxFacts.modify_post_find s u id bid_id a b p (b_denom b) amt Eb)|].
  unfold TxFacts.modify_post. rewrite (WF_modify_xf s u id bid_id a b p amt W Ea Eb Ty).
  destruct (FrameFacts.find_bid_some _ _ _ _ Eb) as (_ & Hba & Hbi). subst id bid_id.
  set (diff := pay_amount (a_pay_denom a) (set_b_terms b p amt) - pay_amount (a_pay_denom a) b) in *.
  rewrite Z.max_r by exact Hdiff.
  match goal with |- context [put_bid ?s0 _] => set (s2 := s0) end.
  assert (Hf2 : forall i j, find_bid s2 i j = find_bid s i j) by reflexivity.
  (* the fields of the bid and the list of bids are read off the term *)
  repeat (split; [reflexivity|]).
  split; [apply map_length|].
  split.
  { intros i j Hij. rewrite find_bid_put, Hf2. cbn [set_b_terms b_auction b_id].
    replace (N.eqb i (b_auction b) && N.eqb j (b_id b)) with false; [reflexivity|].
    symmetry. apply andb_false_iff. destruct Hij as [H|H]; [left|right]; apply N.eqb_neq; exact H. }
  (* so is the rest of the store *)
  repeat (split; [reflexivity|]). split; [exact Hdiff|].
  split; [|split].
  - change (st_xfers (put_bid s2 (set_b_terms b p amt)))
      with (st_xfers s ++ Ledger.send_xf (User u) (Escrow Paying (b_auction b)) (a_pay_denom a) diff).
    unfold Ledger.send_xf. destruct (Z.ltb_spec 0 diff) as [Hd|Hd]; [rewrite (proj2 (Z.eqb_neq diff 0)) by Lia.lia; reflexivity|].
    replace diff with 0 by Lia.lia. reflexivity.
  - change (st_bal (put_bid s2 (set_b_terms b p amt)))
      with (VestingFacts.apply_xfers (st_bal s) (Ledger.send_xf (User u) (Escrow Paying (b_auction b)) (a_pay_denom a) diff)).
    rewrite Ledger.apply_xfers_net, Ledger.net_send_xf, EqbFacts.addr_eqb_refl, N.eqb_refl. cbn [addr_eqb andb]. unfold BankFacts.ind. Lia.lia.
  - change (st_bal (put_bid s2 (set_b_terms b p amt)))
      with (VestingFacts.apply_xfers (st_bal s) (Ledger.send_xf (User u) (Escrow Paying (b_auction b)) (a_pay_denom a) diff)).
    rewrite Ledger.apply_xfers_net, Ledger.net_send_xf, EqbFacts.addr_eqb_refl, N.eqb_refl. cbn [addr_eqb andb]. unfold BankFacts.ind. Lia.lia.
Qed.
Print Assumptions C11_effects.

(* the hypotheses are satisfiable: in PrecondExamples.ex_state bidder 8 raises the price of worth bid 1 of
   auction 1 (no transfer) or its amount from 10 to 25 (15 more reserved); lowering is rejected *)
Example ex_modify_hyps :
  WF ex_state /\ bids_pos ex_state /\
  find_auction ex_state 1 = Some ex_batch /\ find_bid ex_state 1 1 = Some ex_bid.
Proof.
  split; [exact ex_state_WF|]. split; [exact ex_state_bids_pos|]. split; vm_compute; reflexivity.
Qed.
Example ex_modify_price :
  fst (deliver_tx ex_state (MModifyBid (AGood false 8) 1 1 (Some (2 * P)) (coin 2 10))) = Accepted /\
  st_xfers (snd (deliver_tx ex_state (MModifyBid (AGood false 8) 1 1 (Some (2 * P)) (coin 2 10)))) = [].
Proof. split; vm_compute; reflexivity. Qed.
Example ex_modify_amount :
  fst (deliver_tx ex_state (MModifyBid (AGood false 8) 1 1 (Some P) (coin 2 25))) = Accepted /\
  st_xfers (snd (deliver_tx ex_state (MModifyBid (AGood false 8) 1 1 (Some P) (coin 2 25))))
  = [{| x_from := User 8; x_to := Escrow Paying 1; x_denom := 2; x_amt := 15 |}].
Proof. split; vm_compute; reflexivity. Qed.
Example ex_modify_lower :
  fst (deliver_tx ex_state (MModifyBid (AGood false 8) 1 1 (Some P) (coin 2 9))) = Rejected E_INVALID.
Proof. vm_compute. reflexivity. Qed.
